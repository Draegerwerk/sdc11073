(* Invariant proofs over ALL interleavings: with the traced program shapes (commit and send inside the
   transaction lock and the MDIB lock; responses built inside one MDIB critical section) every subscriber
   queue is strictly increasing in MdibVersion and every completed response is a consistent snapshot. *)
From Coq Require Import List ZArith Bool.
From SDC Require Import Common.ListFacts Conc.Model.
Import ListNotations.
Open Scope Z_scope.

Definition W (th : thread) : Prop := t_prog th = writer_prog.
Definition R (th : thread) : Prop := t_prog th = reader_prog.

(* What a thread knows at each program counter, relative to the global version and the subscriber queue.  Only the
   rows of a thread inside a critical section mention them: a writer at 3 holds both locks, a reader at 2 or 3 the
   MDIB lock. *)
Definition wfth (ver : Z) (queue : list Z) (th : thread) : Prop :=
  (W th /\ t_v th = -1 /\ t_c th = -1 /\
   match t_pc th with
   | 3%nat => t_pending th = ver /\ Forall (fun q => q < ver) queue
   | 0%nat | 1%nat | 2%nat | 4%nat | 5%nat | 6%nat => True
   | _ => False
   end)
  \/
  (R th /\
   match t_pc th with
   | 0%nat | 1%nat => t_c th = -1 /\ t_v th = -1
   | 2%nat => t_c th = ver /\ t_v th = -1
   | 3%nat => t_c th = ver /\ t_v th = ver
   | 4%nat => t_c th = t_v th
   | _ => False
   end).

(* no two threads are inside the critical section that [h] recognises *)
Definition excl (h : thread -> bool) (ths : list thread) : Prop :=
  forall i j thi thj, i <> j -> nth_error ths i = Some thi -> nth_error ths j = Some thj ->
    h thi = true -> h thj = true -> False.

Record Inv (s : gstate) : Prop := {
  inv_th : forall i th, nth_error (g_threads s) i = Some th -> wfth (g_ver s) (g_queue s) th;
  inv_xtr : excl holds_tr (g_threads s);
  inv_xmd : excl holds_mdib (g_threads s);
  inv_sorted : sorted_lt (g_queue s) = true;
  inv_le : Forall (fun q => q <= g_ver s) (g_queue s);
  inv_done : responses_consistent s = true
}.

Lemma nth_error_set_nth {A} (l : list A) i x j :
  nth_error (set_nth l i x) j =
  if Nat.eqb i j then (match nth_error l i with Some _ => Some x | None => None end) else nth_error l j.
Proof.
  revert i j; induction l as [|y r IH]; intros i j; cbn [set_nth].
  - destruct i, j; cbn; try reflexivity. destruct (Nat.eqb i j); reflexivity.
  - destruct i as [|i], j as [|j]; cbn [set_nth nth_error Nat.eqb]; try reflexivity. apply IH.
Qed.

Lemma sorted_lt_app_last l x : sorted_lt l = true -> Forall (fun q => q < x) l -> sorted_lt (l ++ [x]) = true.
Proof.
  induction l as [|a r IH]; intros Hs Hf; [reflexivity|]. inversion Hf as [|? ? Ha Hr]; subst.
  destruct r as [|b r']; cbn [app sorted_lt] in *.
  - apply Z.ltb_lt in Ha. now rewrite Ha.
  - apply andb_prop in Hs as [H1 H2]. rewrite H1. now apply IH.
Qed.

Lemma forallb_nth {A} (f : A -> bool) l i x : forallb f l = true -> nth_error l i = Some x -> f x = true.
Proof.
  intros H E. apply nth_error_In in E. rewrite forallb_forall in H. now apply H.
Qed.

(* A thread may enter a critical section only from a state where it was inside already or nobody was. *)
Lemma excl_set_nth h ths i th th' :
  excl h ths -> nth_error ths i = Some th ->
  (h th' = true -> h th = true \/ forallb (fun t => negb (h t)) ths = true) ->
  excl h (set_nth ths i th').
Proof.
  intros X Ei Hh.
  assert (N : forall b thb, i <> b -> nth_error ths b = Some thb -> h th' = true -> h thb = true -> False).
  { intros b thb Hib Eb Ha Hb. destruct (Hh Ha) as [H0|Hf].
    - exact (X i b th thb Hib Ei Eb H0 Hb).
    - pose proof (forallb_nth _ _ _ _ Hf Eb) as F. cbn beta in F. rewrite Hb in F. discriminate. }
  intros a b tha thb Hab Ea Eb Ha Hb. rewrite nth_error_set_nth in Ea, Eb.
  destruct (Nat.eqb_spec i a) as [<-|Hia], (Nat.eqb_spec i b) as [<-|Hib]; try congruence.
  - rewrite Ei in Ea. injection Ea as <-. eauto.
  - rewrite Ei in Eb. injection Eb as <-. eauto.
  - eauto.
Qed.

(* A thread outside the critical sections does not care about the version or the queue. *)
Lemma wfth_other ver queue ver' queue' th :
  wfth ver queue th ->
  (holds_tr th = true -> queue' = queue) -> (holds_mdib th = true -> ver' = ver) ->
  wfth ver' queue' th.
Proof.
  destruct th as [prog pc v c pend]. unfold wfth, W, R, holds_tr, holds_mdib, holds. cbn [t_prog t_pc t_v t_c t_pending].
  intros [(-> & Hv & Hc & P)|(-> & P)] Hq Hv'.
  - left. split; [reflexivity|]. split; [exact Hv|]. split; [exact Hc|].
    destruct pc as [|[|[|[|pc]]]]; try exact P. rewrite Hq, Hv' by reflexivity. exact P.
  - right. split; [reflexivity|].
    destruct pc as [|[|[|[|pc]]]]; try exact P; rewrite Hv' by reflexivity; exact P.
Qed.

Lemma inv_update s i th th' ver' queue' done' :
  Inv s -> nth_error (g_threads s) i = Some th ->
  wfth ver' queue' th' ->
  (holds_tr th' = true -> holds_tr th = true \/ tr_free s = true) ->
  (holds_mdib th' = true -> holds_mdib th = true \/ mdib_free s = true) ->
  (holds_mdib th = false -> ver' = g_ver s) ->
  (holds_tr th = false -> queue' = g_queue s) ->
  sorted_lt queue' = true -> Forall (fun q => q <= ver') queue' ->
  forallb (fun vc => Z.eqb (fst vc) (snd vc)) done' = true ->
  Inv (mkG ver' queue' (set_nth (g_threads s) i th') done').
Proof.
  intros I Ei Hw Htr Hmd Hv Hq Hs Hl Hd.
  constructor; cbn [g_ver g_queue g_threads g_done]; try assumption.
  - intros j thj Ej. rewrite nth_error_set_nth in Ej.
    destruct (Nat.eqb_spec i j) as [<-|Hne].
    + rewrite Ei in Ej. now injection Ej as <-.
    + (* thread i changes the queue / the version only while it holds the transaction lock / the MDIB lock, so
         thread j is not inside that critical section *)
      apply (wfth_other (g_ver s) (g_queue s)); [exact (inv_th _ I j thj Ej)| |]; intros Hj.
      * apply Hq. destruct (holds_tr th) eqn:Hi; [|reflexivity]. destruct (inv_xtr _ I i j th thj Hne Ei Ej Hi Hj).
      * apply Hv. destruct (holds_mdib th) eqn:Hi; [|reflexivity]. destruct (inv_xmd _ I i j th thj Hne Ei Ej Hi Hj).
  - exact (excl_set_nth _ _ _ _ _ (inv_xtr _ I) Ei Htr).
  - exact (excl_set_nth _ _ _ _ _ (inv_xmd _ I) Ei Hmd).
Qed.

(* the common case: only the thread itself changes *)
Lemma inv_update_local s i th th' :
  Inv s -> nth_error (g_threads s) i = Some th ->
  wfth (g_ver s) (g_queue s) th' ->
  (holds_tr th' = true -> holds_tr th = true \/ tr_free s = true) ->
  (holds_mdib th' = true -> holds_mdib th = true \/ mdib_free s = true) ->
  Inv (mkG (g_ver s) (g_queue s) (set_nth (g_threads s) i th') (g_done s)).
Proof. intros I Ei Hw Htr Hmd. apply (inv_update s i th); auto; apply I. Qed.

(* A lock condition of inv_update holds in one of three ways: the lock was held before ([now left]), it is being
   acquired and the guard of the step says it is free ([now right]), or it is not held afterwards ([discriminate]).
   [wf] reads off the row of [wfth] at the new program counter. *)
Ltac wf := unfold wfth, W, R; cbn; auto 7.

Lemma step_inv s i : Inv s -> Inv (step s i).
Proof.
  intros I. unfold step. destruct (nth_error (g_threads s) i) as [th|] eqn:Ei; [|exact I].
  pose proof (inv_th _ I i th Ei) as Wth.
  destruct th as [prog pc v c pend]. unfold wfth, W, R in Wth. cbn [t_prog t_pc t_v t_c t_pending] in *.
  destruct Wth as [(-> & -> & -> & P)|(-> & P)].
  - (* a writer *)
    destruct pc as [|[|[|[|[|[|[|pc]]]]]]]; try contradiction;
      cbn [nth_error writer_prog t_prog t_pc t_v t_c t_pending Z.eqb andb].
    + (* AcqTr *)
      destruct (tr_free s) eqn:F; [|exact I].
      apply (inv_update_local s i _ _ I Ei); [wf|now right|discriminate].
    + (* AcqMdib *)
      destruct (mdib_free s) eqn:F; [|exact I].
      apply (inv_update_local s i _ _ I Ei); [wf|now left|now right].
    + (* Commit *)
      assert (Hlt : Forall (fun q => q < g_ver s + 1) (g_queue s)).
      { eapply Forall_impl; [|apply (inv_le _ I)]. intros q. apply Z.lt_succ_r. }
      eapply inv_update; [exact I|exact Ei|wf|now left|now left|discriminate|auto|apply I| |apply I].
      eapply Forall_impl; [|exact Hlt]. intros q. apply Z.lt_le_incl.
    + (* Send *)
      destruct P as [-> Hlt].
      eapply inv_update; [exact I|exact Ei|wf|now left|now left|auto|discriminate| | |apply I].
      * apply sorted_lt_app_last; [apply I|exact Hlt].
      * apply Forall_app. split; [apply I|]. constructor; [apply Z.le_refl|constructor].
    + (* RelMdib *)
      apply (inv_update_local s i _ _ I Ei); [wf|now left|discriminate].
    + (* RelTr *)
      apply (inv_update_local s i _ _ I Ei); [wf|discriminate|discriminate].
    + (* finished: start over, nothing published *)
      apply (inv_update_local s i _ _ I Ei); [wf|discriminate|discriminate].
  - (* a reader *)
    destruct pc as [|[|[|[|[|pc]]]]]; try contradiction; cbn [nth_error reader_prog t_prog t_pc t_v t_c t_pending].
    + (* AcqMdib *)
      destruct (mdib_free s) eqn:F; [|exact I].
      apply (inv_update_local s i _ _ I Ei); [wf|discriminate|now right].
    + (* ReadContent *)
      destruct P as [-> ->].
      apply (inv_update_local s i _ _ I Ei); [wf|discriminate|now left].
    + (* ReadVersion *)
      destruct P as [-> ->].
      apply (inv_update_local s i _ _ I Ei); [wf|discriminate|now left].
    + (* RelMdib *)
      destruct P as [-> ->].
      apply (inv_update_local s i _ _ I Ei); [wf|discriminate|discriminate].
    + (* finished: publish the response (version, content) and start over *)
      subst c.
      eapply inv_update; [exact I|exact Ei|wf|discriminate|discriminate|auto|auto|apply I|apply I|].
      destruct ((v =? -1) && (v =? -1)); [apply I|].
      cbn [forallb fst snd]. rewrite Z.eqb_refl. apply I.
Qed.

Definition shapes_ok (progs : list (list act)) : Prop := Forall (fun p => p = writer_prog \/ p = reader_prog) progs.

Lemma init_inv progs v0 : shapes_ok progs -> Inv (init progs v0).
Proof.
  intros Hp.
  assert (Hnh : forall k th, nth_error (g_threads (init progs v0)) k = Some th ->
                holds_tr th = false /\ holds_mdib th = false /\ wfth v0 [] th).
  { intros k th E. apply nth_error_In, in_map_iff in E as (p & <- & Ep).
    destruct (proj1 (Forall_forall _ _) Hp p Ep) as [->| ->]; (split; [reflexivity|split; [reflexivity|wf]]). }
  constructor.
  - intros k th E. apply (Hnh k th E).
  - intros a b tha thb _ Ea _ Ha _. destruct (Hnh a tha Ea) as (X & _). congruence.
  - intros a b tha thb _ Ea _ Ha _. destruct (Hnh a tha Ea) as (_ & X & _). congruence.
  - reflexivity.
  - constructor.
  - reflexivity.
Qed.

(* Everything proved about the traced programs is a field of Inv read off at a reachable state. *)
Theorem reachable_inv progs v0 sched : shapes_ok progs -> Inv (run sched (init progs v0)).
Proof. intros H. unfold run. apply fold_inv; [intros s i; apply step_inv|now apply init_inv]. Qed.

Lemma act_eqb_eq a b : act_eqb a b = true -> a = b.
Proof. destruct a, b; cbn; intros H; try discriminate; reflexivity. Qed.
Lemma prog_eqb_eq p q : prog_eqb p q = true -> p = q.
Proof.
  revert q; induction p as [|a p IH]; intros [|b q]; cbn; try discriminate; [reflexivity|].
  intros H. apply andb_prop in H as [H1 H2]. f_equal; [now apply act_eqb_eq|now apply IH].
Qed.

(* all programs of a system are traced commit programs (one per transaction kind) or traced reader programs (Get
   handlers, the periodic collector) *)
Lemma traced_shapes commits readers progs :
  forallb (fun p => prog_eqb p writer_prog) commits = true ->
  forallb (fun p => prog_eqb p reader_prog) readers = true ->
  Forall (fun p => In p commits \/ In p readers) progs -> shapes_ok progs.
Proof.
  intros Hc Hh Hp. rewrite forallb_forall in Hc, Hh.
  eapply Forall_impl; [|exact Hp]. intros p [Hi|Hi]; [left|right]; now apply prog_eqb_eq; auto.
Qed.

Lemma one_commit_shapes commit handlers progs :
  prog_eqb commit writer_prog = true ->
  forallb (fun p => prog_eqb p reader_prog) handlers = true ->
  Forall (fun p => p = commit \/ In p handlers) progs -> shapes_ok progs.
Proof.
  intros Hc Hh Hp. apply (traced_shapes [commit] handlers); [cbn; now rewrite Hc|exact Hh|].
  eapply Forall_impl; [|exact Hp]. intros p [->|Hi]; [left; now left|now right].
Qed.

Lemma excl_andb h ths i j thi thj :
  excl h ths -> i <> j -> nth_error ths i = Some thi -> nth_error ths j = Some thj -> h thi && h thj = false.
Proof.
  intros X Hij Ei Ej. destruct (h thi) eqn:A, (h thj) eqn:B; try reflexivity. destruct (X i j thi thj Hij Ei Ej A B).
Qed.
