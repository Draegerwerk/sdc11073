(* Facts about lists (append and membership, NoDup, filter, forallb / existsb / flat_map, Forall2, fold_left) that the
   proofs of several directories share and the standard library of Coq 8.16 does not have. *)
From Coq Require Import List ZArith.
Import ListNotations.

Lemma in_app_single {A} (l : list A) (e x : A) : In x (l ++ [e]) <-> In x l \/ x = e.
Proof. rewrite in_app_iff. cbn. intuition. Qed.

Lemma app_snoc_split {A} (a b nf : list A) f :
  a ++ b = nf ++ [f] -> (b = [] /\ a = nf ++ [f]) \/ exists nf2, b = nf2 ++ [f] /\ nf = a ++ nf2.
Proof.
  intros H. destruct b as [|x b] using rev_ind; [left; now rewrite app_nil_r in H|].
  right. exists b. rewrite app_assoc in H. apply app_inj_tail in H as [H1 H2]. subst. auto.
Qed.

Lemma NoDup_snoc {A} (l : list A) a : NoDup l -> ~ In a l -> NoDup (l ++ [a]).
Proof. intros Hn Ha. apply (NoDup_Add (Add_app a l [])). rewrite app_nil_r. now split. Qed.

Lemma NoDup_app_inv {A} (l1 l2 : list A) : NoDup (l1 ++ l2) -> NoDup l1 /\ NoDup l2 /\ forall x, In x l1 -> ~ In x l2.
Proof.
  induction l1 as [|a r IH]; cbn [app]; intros Hn; [repeat split; [constructor|exact Hn|intros x []]|].
  inversion Hn as [|? ? Ha Hr]; subst. destruct (IH Hr) as (N1 & N2 & D). rewrite in_app_iff in Ha. repeat split.
  - constructor; [|exact N1]. intros Hi. apply Ha. now left.
  - exact N2.
  - intros x [<-|Hi] Hx; [apply Ha; now right|exact (D x Hi Hx)].
Qed.

Lemma nodup_mid {K A} (pre post : list (K * A)) e : NoDup (map fst (pre ++ e :: post)) -> ~ In (fst e) (map fst pre).
Proof.
  rewrite map_app. cbn [map]. intros Hn Hi. apply NoDup_remove_2 in Hn. apply Hn. apply in_or_app. now left.
Qed.

Lemma NoDup_map_inj {A B} (f : A -> B) l x y : NoDup (map f l) -> In x l -> In y l -> f x = f y -> x = y.
Proof.
  induction l as [|a l IH]; simpl; [tauto|].
  intros N Hx Hy E. inversion N as [|? ? Hn N']; subst.
  destruct Hx as [->|Hx], Hy as [->|Hy].
  - reflexivity.
  - exfalso. apply Hn. rewrite E. now apply in_map.
  - exfalso. apply Hn. rewrite <- E. now apply in_map.
  - auto.
Qed.

Lemma NoDup_fst_fun {K A} (l : list (K * A)) k x y : NoDup (map fst l) -> In (k, x) l -> In (k, y) l -> x = y.
Proof. intros N Hx Hy. now injection (NoDup_map_inj fst l _ _ N Hx Hy eq_refl). Qed.

Lemma filter_all_true {A} (p : A -> bool) l : (forall x, In x l -> p x = true) -> filter p l = l.
Proof.
  induction l as [|x r IH]; intros H; [reflexivity|]. cbn [filter]. rewrite (H x (or_introl eq_refl)).
  f_equal. apply IH. intros y Hy. apply H. now right.
Qed.

Lemma filter_all_false {A} (p : A -> bool) l : (forall x, In x l -> p x = false) -> filter p l = [].
Proof.
  induction l as [|x r IH]; intros H; [reflexivity|]. cbn [filter]. rewrite (H x (or_introl eq_refl)).
  apply IH. intros y Hy. apply H. now right.
Qed.

Lemma filter_split {A} (f : A -> bool) l : forall a x b,
  filter f l = a ++ x :: b -> exists p q, l = p ++ x :: q /\ filter f p = a /\ filter f q = b.
Proof.
  induction l as [|y l IH]; intros a x b H; simpl in H.
  - destruct a; discriminate.
  - destruct (f y) eqn:Ey.
    + destruct a as [|a0 a].
      * simpl in H. injection H as E1 E2. subst. exists [], l. auto.
      * simpl in H. injection H as E1 E2. subst. destruct (IH _ _ _ E2) as (p & q & E & F1 & F2).
        subst. exists (a0 :: p), q. simpl. rewrite Ey. auto.
    + destruct (IH _ _ _ H) as (p & q & E & F1 & F2). subst. exists (y :: p), q. simpl. rewrite Ey. auto.
Qed.

Lemma NoDup_map_filter {A B} (f : A -> B) (g : A -> bool) l : NoDup (map f l) -> NoDup (map f (filter g l)).
Proof.
  induction l as [|x l IH]; simpl; intros ND; [constructor|].
  inversion ND as [|? ? Hn ND']; subst. destruct (g x); simpl; [|auto].
  constructor; [|auto]. intros H. apply Hn. exact (incl_map f (incl_filter g l) _ H).
Qed.

Lemma existsb_false {A} (f : A -> bool) l : existsb f l = false <-> forall x, In x l -> f x = false.
Proof.
  split.
  - intros E x Hx. destruct (f x) eqn:Ef; [|reflexivity].
    assert (G : existsb f l = true) by (apply existsb_exists; now exists x). congruence.
  - intros H. induction l as [|x r IH]; [reflexivity|]. cbn [existsb]. rewrite (H x (or_introl eq_refl)). apply IH.
    intros y Hy. apply H. now right.
Qed.

Lemma existsb_Zeqb_In x l : existsb (Z.eqb x) l = true <-> In x l.
Proof.
  rewrite existsb_exists. split.
  - intros (y & Hy & E). apply Z.eqb_eq in E. now subst y.
  - intros Hi. exists x. split; [assumption|apply Z.eqb_refl].
Qed.

Lemma forallb_impl {A} (P Q : A -> bool) l :
  (forall x, P x = true -> Q x = true) -> forallb P l = true -> forallb Q l = true.
Proof. intros H. rewrite !forallb_forall. auto. Qed.

Lemma forallb_ext {A} (p q : A -> bool) l : (forall x, p x = q x) -> forallb p l = forallb q l.
Proof. intros E. induction l as [|x l IH]; simpl; [reflexivity|now rewrite E, IH]. Qed.

Lemma forallb_map {A B} (g : A -> B) (p : B -> bool) l : forallb p (map g l) = forallb (fun x => p (g x)) l.
Proof. induction l as [|x l IH]; simpl; [reflexivity|now rewrite IH]. Qed.

Lemma forallb_flat_map {A B} (Q : B -> bool) (f : A -> list B) l :
  (forall a, In a l -> forallb Q (f a) = true) -> forallb Q (flat_map f l) = true.
Proof.
  induction l as [|a l IH]; intros H; [reflexivity|]. cbn [flat_map].
  rewrite forallb_app, (H a (or_introl eq_refl)), IH; [reflexivity|]. intros b Hb. apply H. now right.
Qed.

Lemma flat_map_ext_in {A B} (f g : A -> list B) l : (forall a, In a l -> f a = g a) -> flat_map f l = flat_map g l.
Proof.
  induction l as [|a l IH]; intros H; [reflexivity|]. cbn [flat_map].
  rewrite (H a (or_introl eq_refl)), IH; [reflexivity|]. intros b Hb. apply H. now right.
Qed.

Lemma Forall2_length {A B} (R : A -> B -> Prop) l l' : Forall2 R l l' -> length l = length l'.
Proof. induction 1; cbn [length]; congruence. Qed.

Lemma Forall2_impl {A B} (P Q : A -> B -> Prop) : (forall a b, P a b -> Q a b) ->
  forall l l', Forall2 P l l' -> Forall2 Q l l'.
Proof. intros H l l' F. induction F; constructor; auto. Qed.

Lemma Forall2_same {A} (R : A -> A -> Prop) : (forall x, R x x) -> forall l, Forall2 R l l.
Proof. intros H l. induction l; constructor; auto. Qed.

Lemma Forall2_map_eq {A B C} (R : A -> B -> Prop) (f : A -> C) (g : B -> C) :
  (forall x y, R x y -> g y = f x) -> forall l l', Forall2 R l l' -> map g l' = map f l.
Proof. intros H l l' F. induction F as [|x y l l' Hxy _ IH]; simpl; [reflexivity|]. now rewrite IH, (H _ _ Hxy). Qed.

Lemma Forall2_In_l {A B} (R : A -> B -> Prop) l l' x : Forall2 R l l' -> In x l -> exists y, In y l' /\ R x y.
Proof.
  intros F. induction F as [|x0 y0 l l' Hxy _ IH]; simpl; intros H; [contradiction|].
  destruct H as [->|H]; [exists y0; auto|]. destruct (IH H) as [y [? ?]]. exists y; auto.
Qed.

Lemma Forall2_In_r {A B} (R : A -> B -> Prop) l l' y : Forall2 R l l' -> In y l' -> exists x, In x l /\ R x y.
Proof.
  intros F. induction F as [|x0 y0 l l' Hxy _ IH]; simpl; intros H; [contradiction|].
  destruct H as [->|H]; [exists x0; auto|]. destruct (IH H) as [x [? ?]]. exists x; auto.
Qed.

Lemma fold_inv_in {A B} (P : A -> Prop) (f : A -> B -> A) l :
  (forall a b, In b l -> P a -> P (f a b)) -> forall a, P a -> P (fold_left f l a).
Proof.
  induction l as [|b l IH]; intros Hf a Ha; cbn [fold_left]; [exact Ha|].
  apply IH; [intros a0 b0 Hi; apply Hf; now right|]. apply Hf; [now left|exact Ha].
Qed.

Lemma fold_inv {A B} (P : A -> Prop) (f : A -> B -> A) l :
  (forall a b, P a -> P (f a b)) -> forall a, P a -> P (fold_left f l a).
Proof. intros Hf. apply fold_inv_in. intros a b _. apply Hf. Qed.

Lemma fold_frame {A B C} (g : A -> C) (f : A -> B -> A) l :
  (forall a b, g (f a b) = g a) -> forall a, g (fold_left f l a) = g a.
Proof. intros Hf a. apply (fold_inv (fun a' => g a' = g a)); [|reflexivity]. intros a' b <-. apply Hf. Qed.

Lemma fold_left_ext {A B} (f g : A -> B -> A) : (forall a b, f a b = g a b) ->
  forall l a, fold_left f l a = fold_left g l a.
Proof. intros E. induction l as [|b r IH]; intros a; cbn [fold_left]; [reflexivity|]. now rewrite E, IH. Qed.

(* an insertion sort keeps the elements *)
Lemma fold_insert_In {A} (ins : A -> list A -> list A) :
  (forall x l y, In y (ins x l) <-> In y (x :: l)) ->
  forall l acc y, In y (fold_left (fun acc x => ins x acc) l acc) <-> In y l \/ In y acc.
Proof.
  intros H l. induction l as [|x l IH]; intros acc y; cbn [fold_left In]; [tauto|].
  rewrite IH, H. cbn [In]. tauto.
Qed.
