(* C15 -- send loop: every enqueued datagram is transmitted exactly once, never before its send time,
   and a stop does not lose what is already queued. *)
From Coq Require Import List ZArith Lia Permutation Sorted.
From SDC Require Import Common.ListFacts Wsd.SendLoop.
Import ListNotations.
Open Scope Z_scope.

Lemma insert_perm x q : Permutation (insert x q) (x :: q).
Proof.
  induction q as [|y r IH]; cbn [insert]; [reflexivity|].
  destruct (fst x <? fst y); [reflexivity|].
  rewrite IH. apply perm_swap.
Qed.

Definition time_sorted (q : list item) : Prop := Sorted (fun a b => fst a <= fst b) q.

Lemma insert_hdrel x a q : fst a <= fst x -> HdRel (fun a b => fst a <= fst b) a q ->
  HdRel (fun a b => fst a <= fst b) a (insert x q).
Proof.
  intros Hax Hq. destruct q as [|y r]; cbn [insert]; [now constructor|].
  destruct (fst x <? fst y); constructor; [exact Hax|]. now inversion Hq.
Qed.

Lemma insert_sorted x q : time_sorted q -> time_sorted (insert x q).
Proof.
  unfold time_sorted. induction q as [|y r IH]; cbn [insert]; intros Hs.
  - repeat constructor.
  - destruct (fst x <? fst y) eqn:E.
    + constructor; [exact Hs|]. constructor. apply Z.ltb_lt in E. lia.
    + apply Z.ltb_ge in E. inversion Hs as [|? ? Hr Hh]; subst. constructor; [now apply IH|].
      now apply insert_hdrel.
Qed.

Lemma puts_app a b : puts (a ++ b) = puts a ++ puts b.
Proof. unfold puts. apply flat_map_app. Qed.

Lemma puts_map_Put l : puts (map Put l) = l.
Proof. induction l as [|x l IH]; [reflexivity|]. cbn [map puts flat_map app]. fold (puts (map Put l)). now rewrite IH. Qed.

(* a run from any state: queue + transmitted afterwards = what was put + queue + transmitted before *)
Lemma srun_from_conserved es : forall s,
  Permutation (sent_items (srun_from s es) ++ fst (srun_from s es)) (puts es ++ sent_items s ++ fst s).
Proof.
  induction es as [|e es IH]; intros s; [reflexivity|].
  cbn [srun_from fold_left]. fold (srun_from (sstep s e) es). rewrite IH.
  unfold sent_items. destruct s as [q lg], e as [x|now]; cbn [sstep puts flat_map fst snd app]; fold (puts es).
  - rewrite insert_perm, !app_assoc. symmetry. apply Permutation_middle.
  - destruct q as [|y r]; [reflexivity|]. destruct (fst y <=? now); [|reflexivity].
    cbn [map fst snd app]. apply Permutation_app_head, Permutation_middle.
Qed.

Theorem sendloop_conservation es : Permutation (sent_items (srun es) ++ fst (srun es)) (puts es).
Proof. pose proof (srun_from_conserved es ([], [])) as H. now rewrite !app_nil_r in H. Qed.

(* nothing is transmitted before its send time *)
Definition on_time (s : sstate) : Prop := Forall (fun p => fst (snd p) <= fst p) (snd s).

Lemma sstep_on_time s e : on_time s -> on_time (sstep s e).
Proof.
  unfold on_time. destruct s as [q lg]. destruct e as [x|now]; cbn [sstep fst snd]; intros H; [exact H|].
  destruct q as [|y r]; [exact H|]. destruct (fst y <=? now) eqn:E; [|exact H].
  cbn [snd]. constructor; [|exact H]. cbn [fst snd]. now apply Z.leb_le.
Qed.

Theorem sendloop_never_early es : on_time (srun es).
Proof. apply (fold_inv on_time sstep); [exact sstep_on_time|constructor]. Qed.

(* the queue is always ordered by send time: the head is the earliest pending transmission *)
Lemma sstep_sorted s e : time_sorted (fst s) -> time_sorted (fst (sstep s e)).
Proof.
  destruct s as [q lg]. destruct e as [x|now]; cbn [sstep fst]; intros H; [now apply insert_sorted|].
  destruct q as [|y r]; [exact H|]. destruct (fst y <=? now); [|exact H]. cbn [fst]. now inversion H.
Qed.

(* draining: once the clock has passed every pending send time, as many iterations as there are pending
   items empty the queue (this is what the loop does after schedule_stop: it ends only on an empty queue) *)
Lemma drain now n : forall s, Forall (fun x => fst x <= now) (fst s) -> (length (fst s) <= n)%nat ->
  fst (srun_from s (repeat (Tick now) n)) = [].
Proof.
  induction n as [|n IH]; intros [q lg] Hall Hlen; cbn [fst] in *.
  - destruct q; [reflexivity|cbn in Hlen; lia].
  - cbn [repeat srun_from fold_left]. destruct q as [|y r].
    + cbn [sstep fst]. apply (IH ([], lg)); cbn [fst]; [constructor | cbn; lia].
    + cbn [sstep fst]. inversion Hall as [|? ? Hy Hr]; subst.
      destruct (fst y <=? now) eqn:E; [|apply Z.leb_gt in E; lia].
      apply (IH (r, (now, y) :: lg)); cbn [fst]; [exact Hr | cbn in Hlen; lia].
Qed.

Lemma puts_ticks now n : puts (repeat (Tick now) n) = [].
Proof. induction n as [|n IH]; [reflexivity|exact IH]. Qed.

Theorem sendloop_drains es now n :
  Forall (fun x => fst x <= now) (puts es) -> (length (puts es) <= n)%nat ->
  let s := srun (es ++ repeat (Tick now) n) in
  fst s = [] /\ Permutation (sent_items s) (puts es) /\ on_time s.
Proof.
  intros Hall Hlen s. pose proof (sendloop_conservation es) as Hc.
  assert (Hq : fst s = []).
  { replace s with (srun_from (srun es) (repeat (Tick now) n)) by (symmetry; apply fold_left_app). apply drain.
    - rewrite Forall_forall in *. intros x Hx. apply Hall. rewrite <- Hc. apply in_or_app. now right.
    - apply Permutation_length in Hc. rewrite app_length in Hc. unfold sstate, item in *. lia. }
  split; [exact Hq|]. split; [|apply sendloop_never_early].
  pose proof (sendloop_conservation (es ++ repeat (Tick now) n)) as Hc2. fold s in Hc2.
  rewrite Hq, app_nil_r, puts_app, puts_ticks, app_nil_r in Hc2. exact Hc2.
Qed.
