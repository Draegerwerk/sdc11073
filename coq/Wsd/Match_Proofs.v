(* match_rfc (Wsd/Match.v) is a function of the two urlsplit results (match_rfc_eq); with fixed = true every level of
   the filter returns a boolean (the _ret lemmas); a well-formed URI record (Wsd/Uri.v) rendered to text is split
   into the components it was written from (urlsplit_render). *)
From Coq Require Import List NArith Bool Lia.
From SDC Require Import Common.ListFacts Location.Quote Location.Loc Location.Proofs Wsd.Uri Wsd.Match.
Import ListNotations.
Open Scope N_scope.
Arguments N.eqb : simpl never.

Definition is_prefix (a b : list bytes) : Prop := exists t, b = a ++ t.

Lemma prefixb_spec : forall a b, prefixb a b = true <-> is_prefix a b.
Proof.
  induction a as [|x a IH]; intros b; simpl.
  - split; auto. intros _. exists b. reflexivity.
  - destruct b as [|y b].
    + split; [discriminate|]. intros [t H]. discriminate.
    + rewrite andb_true_iff, bytes_eqb_eq, IH. split.
      * intros [-> [t ->]]. exists t. reflexivity.
      * intros [t H]. injection H as -> ->. split; auto. exists t. reflexivity.
Qed.

Lemma is_prefix_refl : forall a, is_prefix a a.
Proof. intros a. exists []. now rewrite app_nil_r. Qed.

Lemma is_prefix_trans : forall a b c, is_prefix a b -> is_prefix b c -> is_prefix a c.
Proof. intros a b c [t ->] [u ->]. exists (t ++ u). now rewrite app_assoc. Qed.

Lemma lower_idem : forall c, lower (lower c) = lower c.
Proof. intros c. unfold lower, is_upper, in_range. destruct ((65 <=? c) && (c <=? 90)) eqn:E; rewrite ?E; auto.
  assert ((65 <=? c + 32) && (c + 32 <=? 90) = false) as -> by lia. reflexivity. Qed.

Lemma lower_s_idem : forall s, lower_s (lower_s s) = lower_s s.
Proof. intros s. unfold lower_s. rewrite map_map. apply map_ext. apply lower_idem. Qed.

Section Rfc.
  Variable M : mconsts.
  Variable split : bytes -> sres.

  (* what the statement says, on the components urlsplit finds *)
  Definition rfc_spec (my other : bytes) : Prop :=
    exists sa na pa qa fa sb nb pb qb fb,
      split my = SplitOk sa na pa qa fa /\ split other = SplitOk sb nb pb qb fb /\
      lower_s sa = lower_s sb /\ lower_s na = lower_s nb /\
      is_prefix (map unquote (split_on 47 pa)) (map unquote (split_on 47 pb)).

  (* match_rfc as a function of the two split results, and rfc_spec in the same form: rfc_cond is what the proofs
     work with (it computes once the split results are known), rfc_spec_eq is the bridge from the existential form *)
  Definition rfc_verdict (fixed : bool) (r1 r2 : sres) : outcome bool :=
    match r1, r2 with
    | SplitOk sa na pa _ _, SplitOk sb nb pb _ _ =>
        Ret (bytes_eqb (lower_s sa) (lower_s sb) &&
             (bytes_eqb (lower_s na) (lower_s nb) && prefixb (map unquote (split_on 47 pa)) (map unquote (split_on 47 pb))))
    | _, _ => if fixed then Ret false else Raise
    end.
  Definition rfc_cond (r1 r2 : sres) : Prop :=
    match r1, r2 with
    | SplitOk sa na pa _ _, SplitOk sb nb pb _ _ =>
        lower_s sa = lower_s sb /\ lower_s na = lower_s nb /\
        is_prefix (map unquote (split_on 47 pa)) (map unquote (split_on 47 pb))
    | _, _ => False
    end.

  Lemma match_rfc_eq : forall fixed my other,
    match_rfc fixed split my other = rfc_verdict fixed (split my) (split other).
  Proof.
    intros fixed my other. unfold match_rfc, rfc_verdict.
    destruct (split my) as [|sa na pa qa fa]; [reflexivity|]. destruct (split other) as [|sb nb pb qb fb]; [reflexivity|].
    destruct (bytes_eqb (lower_s sa) (lower_s sb)); [|reflexivity].
    destruct (bytes_eqb (lower_s na) (lower_s nb)); [|reflexivity]. cbn [negb orb andb].
    (* identical paths: the shortcut agrees with the segment-wise comparison *)
    destruct (bytes_eqb pa pb) eqn:E; [|reflexivity]. apply bytes_eqb_eq in E. subst pb.
    symmetry. f_equal. apply prefixb_spec, is_prefix_refl.
  Qed.

  Lemma rfc_spec_eq : forall my other, rfc_spec my other <-> rfc_cond (split my) (split other).
  Proof.
    intros my other. split.
    - intros (? & ? & ? & ? & ? & ? & ? & ? & ? & ? & -> & -> & H). exact H.
    - unfold rfc_spec. destruct (split my), (split other); try contradiction. intros H.
      do 10 eexists. split; [reflexivity|]. split; [reflexivity|exact H].
  Qed.

  Lemma match_rfc_spec : forall fixed my other,
    match_rfc fixed split my other = Ret true <-> rfc_spec my other.
  Proof.
    intros fixed my other. rewrite match_rfc_eq, rfc_spec_eq.
    destruct (split my) as [|sa na pa qa fa], (split other) as [|sb nb pb qb fb]; cbn [rfc_verdict rfc_cond].
    1-3: destruct fixed; (split; [discriminate|contradiction]).
    rewrite <- !bytes_eqb_eq, <- prefixb_spec, <- !andb_true_iff. split; [now intros [= ->]|now intros ->].
  Qed.

  Lemma match_rfc_total : forall my other, exists b, match_rfc true split my other = Ret b.
  Proof. intros my other. rewrite match_rfc_eq. destruct (split my), (split other); cbn [rfc_verdict]; eauto. Qed.

  Lemma match_rfc_refl : forall fixed a, split a <> SplitErr -> match_rfc fixed split a a = Ret true.
  Proof.
    intros fixed a H. rewrite match_rfc_spec, rfc_spec_eq. destruct (split a); [congruence|].
    cbn [rfc_cond]. auto using is_prefix_refl.
  Qed.

  Lemma match_scope_rfc : forall fixed mb a b, is_rfc M mb = true ->
    match_scope M fixed split mb a b = match_rfc fixed split a b.
  Proof. intros. unfold match_scope. now rewrite H. Qed.

  Lemma match_scope_strcmp : forall fixed mb a b, is_rfc M mb = false -> is_strcmp M mb = true ->
    match_scope M fixed split mb a b = Ret (bytes_eqb a b).
  Proof. intros. unfold match_scope. now rewrite H, H0. Qed.

  Lemma match_scope_other : forall fixed mb a b, is_rfc M mb = false -> is_strcmp M mb = false ->
    match_scope M fixed split mb a b = Ret false.
  Proof. intros. unfold match_scope. now rewrite H, H0. Qed.

  Lemma match_scope_total : forall mb a b, exists r, match_scope M true split mb a b = Ret r.
  Proof.
    intros mb a b. unfold match_scope. destruct (is_rfc M mb); [apply match_rfc_total|].
    destruct (is_strcmp M mb); eauto.
  Qed.

  Lemma scope_matchesb_ret : forall mb a b, match_scope M true split mb a b = Ret (scope_matchesb M true split mb a b).
  Proof. intros mb a b. unfold scope_matchesb. destruct (match_scope_total mb a b) as [r ->]. reflexivity. Qed.

  Lemma any_entry_ret : forall mb u es,
    any_entry M true split mb u es = Ret (existsb (scope_matchesb M true split mb u) es).
  Proof.
    intros mb u es. induction es as [|e r IH]; simpl; auto.
    rewrite scope_matchesb_ret. destruct (scope_matchesb M true split mb u e); simpl; auto.
  Qed.

  Lemma matches_filter_ret : forall sv types scopes,
    matches_filter M true split sv types scopes = Ret (matchesb M true split types scopes sv).
  Proof.
    intros sv types scopes. unfold matches_filter, matchesb.
    destruct (types_ok types sv); simpl; auto.
    destruct scopes as [[mb uris]|]; auto.
    induction uris as [|u r IH]; simpl; auto.
    unfold scope_in_list. destruct (s_scopes sv) as [es|]; simpl; auto.
    rewrite any_entry_ret. destruct (existsb _ es); simpl; auto.
  Qed.

  Lemma filter_services_ret : forall svs types scopes,
    filter_services M true split svs types scopes = Ret (filter (matchesb M true split types scopes) svs).
  Proof.
    intros svs types scopes. induction svs as [|sv r IH]; simpl; auto.
    rewrite matches_filter_ret, IH. destruct (matchesb _ _ _ _ _ sv); reflexivity.
  Qed.

  (* under a rule the node does not implement nothing matches, at every level *)
  Section UnknownRule.
    Variable fixed : bool.
    Variable mb : option bytes.
    Hypothesis Hrfc : is_rfc M mb = false.
    Hypothesis Hstr : is_strcmp M mb = false.

    Lemma any_entry_other : forall u es, any_entry M fixed split mb u es = Ret false.
    Proof. intros u es. induction es as [|e r IH]; simpl; auto. now rewrite match_scope_other. Qed.

    Lemma scope_in_list_other : forall u srv, scope_in_list M fixed split mb u srv = Ret false.
    Proof. intros u [es|]; simpl; auto using any_entry_other. Qed.

    Lemma matches_filter_other : forall sv types u us,
      matches_filter M fixed split sv types (Some (mb, u :: us)) = Ret false.
    Proof.
      intros sv types u us. unfold matches_filter. destruct (types_ok types sv); auto.
      simpl. now rewrite scope_in_list_other.
    Qed.

    Lemma filter_services_other : forall svs types u us,
      filter_services M fixed split svs types (Some (mb, u :: us)) = Ret [].
    Proof.
      intros svs types u us. induction svs as [|sv r IH]; auto.
      cbn [filter_services]. now rewrite matches_filter_other, IH.
    Qed.
  End UnknownRule.

  Lemma match_scope_malformed : forall mb a b, is_rfc M mb = true -> split a = SplitErr \/ split b = SplitErr ->
    match_scope M true split mb a b = Ret false.
  Proof.
    intros mb a b R H. rewrite match_scope_rfc, match_rfc_eq by assumption.
    destruct H as [-> | ->]; [reflexivity|]. now destruct (split a).
  Qed.

  Theorem identical_text_by_rule : forall mb u es, In u es ->
    scope_in_list M true split mb u (Some es) =
    Ret (if is_rfc M mb then negb (is_err (split u)) else is_strcmp M mb).
  Proof.
    intros mb u es Hin. cbn [scope_in_list]. rewrite any_entry_ret. f_equal.
    destruct (is_rfc M mb) eqn:R.
    - destruct (split u) eqn:S; cbn [is_err negb].
      + apply existsb_false. intros e _. unfold scope_matchesb.
        now rewrite match_scope_malformed by auto.
      + apply existsb_exists. exists u. split; auto. unfold scope_matchesb.
        rewrite match_scope_rfc, match_rfc_refl by (auto; congruence). reflexivity.
    - destruct (is_strcmp M mb) eqn:C.
      + apply existsb_exists. exists u. split; auto. unfold scope_matchesb.
        rewrite match_scope_strcmp by auto. apply bytes_eqb_refl.
      + apply existsb_false. intros e _. unfold scope_matchesb. now rewrite match_scope_other by auto.
  Qed.
End Rfc.

Theorem urlsplit_render : forall bad u, wf_uri u = true ->
  urlsplit bad (render u) =
  SplitOk (lower_s (u_scheme u)) (opt_val (u_auth u)) (u_path u) (opt_val (u_query u)) (opt_val (u_frag u)).
Proof.
  intros bad u H. unfold wf_uri in H. repeat (apply andb_prop in H as [H ?]).
  apply urlsplit_assembled; auto.
  - apply forallb_join; [reflexivity|]. apply Forall_forall. intros p Hp.
    rewrite forallb_forall in H3. eapply forallb_impl; [|exact (H3 p Hp)].
    intros c Hc. unfold path_char. now rewrite Hc.
  - destruct (u_auth u); [|assumption]. unfold u_path.
    destruct (u_parts u) as [|[|] [|p1 rest]]; try discriminate; reflexivity.
Qed.

Lemma split_path_parts : forall u, wf_uri u = true -> split_on 47 (u_path u) = u_parts u.
Proof.
  intros u H. unfold wf_uri in H. repeat (apply andb_prop in H as [H ?]). apply split_on_join.
  - destruct (u_parts u); [discriminate|congruence].
  - apply Forall_forall. intros p Hp. rewrite forallb_forall in H3.
    eapply mem_false_forall; [exact (H3 p Hp)|reflexivity].
Qed.
