From Coq Require Import List ZArith Bool Lia.
From SDC Require Import Common.ListFacts Wsd.Udp.
Import ListNotations.
Open Scope Z_scope.

Lemma sends_length n idx t d u : length (sends n idx t d u) = n.
Proof. revert idx t d; induction n as [|n IH]; intros; simpl; [reflexivity|]. now rewrite IH. Qed.

Lemma schedule_length p d0 g : length (schedule_ms p d0 g) = S (repeat p).
Proof. unfold schedule_ms; simpl. now rewrite sends_length. Qed.

Lemma gaps_sends n idx t d u :
  gaps (t :: map fst (sends n idx t d u)) = gap_seq n d u.
Proof.
  revert idx t d; induction n as [|n IH]; intros idx t d; [reflexivity|].
  cbn [sends map fst gap_seq].
  change (gaps (t :: t + d :: map fst (sends n (idx + 1) (t + d) (Z.min (2 * d) u) u)))
    with ((t + d - t) :: gaps (t + d :: map fst (sends n (idx + 1) (t + d) (Z.min (2 * d) u) u))).
  rewrite IH. f_equal. lia.
Qed.

Lemma schedule_gaps p d0 g :
  gaps (times (schedule_ms p d0 g)) = gap_seq (repeat p) g (upper_ms p).
Proof. unfold schedule_ms, times. cbn [map fst]. apply gaps_sends. Qed.

Lemma gap_seq_length n g u : length (gap_seq n g u) = n.
Proof. revert g; induction n as [|n IH]; intros; simpl; [reflexivity|]. now rewrite IH. Qed.

Lemma gap_seq_le n g u : g <= u -> Forall (fun x => x <= u) (gap_seq n g u).
Proof.
  revert g; induction n as [|n IH]; intros g H; simpl; constructor; [exact H|].
  apply IH. lia.
Qed.

Lemma gap_seq_nth_succ n g u k :
  (S k < n)%nat -> nth (S k) (gap_seq n g u) 0 = Z.min (2 * nth k (gap_seq n g u) 0) u.
Proof.
  revert g k; induction n as [|n IH]; intros g k H; [lia|].
  destruct k as [|k].
  - destruct n as [|n]; [lia|]. reflexivity.
  - cbn [gap_seq nth]. apply IH. lia.
Qed.

Lemma gap_seq_head n g u : (0 < n)%nat -> nth 0 (gap_seq n g u) 0 = g.
Proof. destruct n; [lia|reflexivity]. Qed.

Lemma schedule_first p d0 g : nth 0 (times (schedule_ms p d0 g)) 0 = d0.
Proof. reflexivity. Qed.

Lemma sends_idx n idx t d u k :
  (k < n)%nat -> snd (nth k (sends n idx t d u) (0, 0)) = idx + Z.of_nat k.
Proof.
  revert idx t d k; induction n as [|n IH]; intros idx t d k H; [lia|].
  destruct k as [|k]; cbn [sends nth snd]; [lia|]. rewrite IH by lia. lia.
Qed.

(* The envelope: the statement of C15, first half. *)
Definition envelope (p : params) (d0 g : Z) : Prop :=
  let ts := times (schedule_ms p d0 g) in
  let gs := gaps ts in
  length ts = S (repeat p) /\
  nth 0 ts 0 = d0 /\ 0 <= nth 0 ts 0 <= init_ms p /\
  length gs = repeat p /\
  ((0 < repeat p)%nat -> nth 0 gs 0 = g /\ min_ms p <= nth 0 gs 0 < max_ms p) /\
  (forall k, (S k < repeat p)%nat -> nth (S k) gs 0 = Z.min (2 * nth k gs 0) (upper_ms p)) /\
  Forall (fun x => x <= upper_ms p) gs.

(* of wf p only max_ms p <= upper_ms p is used (the first gap is below the cap); the bounds on the draws do the rest *)
Lemma envelope_holds p d0 g :
  wf p -> 0 <= d0 <= init_ms p -> min_ms p <= g < max_ms p -> envelope p d0 g.
Proof.
  intros (Hi & Hm & Hmm & Hu) Hd Hg. unfold envelope. cbv zeta.
  rewrite schedule_gaps. unfold times at 1. rewrite map_length, schedule_length.
  rewrite gap_seq_length. repeat split; try (cbn; lia).
  - now rewrite gap_seq_head.
  - rewrite gap_seq_head by assumption. lia.
  - rewrite gap_seq_head by assumption. lia.
  - intros k Hk. now apply gap_seq_nth_succ.
  - apply gap_seq_le. lia.
Qed.

Lemma wfb_wf p : wfb p = true -> wf p.
Proof. unfold wfb, wf. intros H. repeat (apply andb_prop in H as [H ?]). lia. Qed.

(* the boolean twin agrees with the statement on the part it checks *)
Lemma check_envelope_true p d0 g :
  wf p -> 0 <= d0 <= init_ms p -> min_ms p <= g < max_ms p -> check_envelope p d0 g = true.
Proof.
  intros Hwf Hd Hg. unfold check_envelope. cbv zeta.
  rewrite schedule_gaps. unfold times. rewrite map_length, schedule_length, Nat.eqb_refl.
  cbn [schedule_ms map fst andb].
  replace (0 <=? d0) with true by lia. replace (d0 <=? init_ms p) with true by lia. cbn [andb].
  destruct Hwf as (_ & _ & _ & Hu).
  assert (G : forall n g0 (first : bool), g0 <= upper_ms p ->
          (if first then (min_ms p <=? g0) && (g0 <? max_ms p) else true) = true ->
          envelope_gaps_ok first (gap_seq n g0 (upper_ms p)) p = true).
  { induction n as [|n IH]; intros g0 first H0 Hf; [reflexivity|].
    cbn [gap_seq envelope_gaps_ok]. rewrite Hf, (IH _ false) by (reflexivity || lia).
    replace (g0 <=? upper_ms p) with true by lia.
    destruct n; cbn [gap_seq andb]; [reflexivity|now rewrite Z.eqb_refl]. }
  apply G; lia.
Qed.

Section DedupProofs.
  Variable cap : nat.

  Lemma is_known_In k id : is_known k id = true <-> In id k.
  Proof. apply existsb_Zeqb_In. Qed.

  (* an event that registers a new id moves every remembered id back by one position, the others move none *)
  Definition inserts (k : known) (e : ev) : bool :=
    match e with EvOut _ => true | EvIn id => negb (is_known k id) | EvOp _ => false | EvRestart => false end.

  Fixpoint count_inserts (k : known) (es : list ev) : nat :=
    match es with
    | [] => O
    | e :: r => (if inserts k e then 1 else 0) + count_inserts (fst (dstep cap k e)) r
    end.

  Lemma drun_fst k e r : fst (drun cap k (e :: r)) = fst (drun cap (fst (dstep cap k e)) r).
  Proof. cbn [drun]. destruct (dstep cap k e) as [k1 b]. cbn [fst]. destruct (drun cap k1 r) as [k2 bs]. reflexivity. Qed.

  (* the invariant: id is among the n newest entries, n counting the registrations since its own *)
  Lemma remember_recent k id j n :
    (S n <= cap)%nat -> In id (firstn n k) -> In id (firstn (S n) (remember cap k j)).
  Proof. intros Hn H. unfold remember. rewrite firstn_firstn, Nat.min_l by lia. now right. Qed.

  Lemma dstep_recent k e id n :
    is_restart e = false -> In id (firstn n k) -> ((if inserts k e then S n else n) <= cap)%nat ->
    In id (firstn (if inserts k e then S n else n) (fst (dstep cap k e))).
  Proof.
    intros Hr H Hn. destruct e as [j|j|o|]; cbn [dstep inserts] in *; [| | |discriminate Hr].
    - now apply remember_recent.
    - destruct (is_known k j); cbn [fst negb] in *; [exact H|now apply remember_recent].
    - exact H.
  Qed.

  Lemma drun_recent es : forall k id n,
    no_restart es = true -> In id (firstn n k) -> (n + count_inserts k es <= cap)%nat ->
    In id (firstn (n + count_inserts k es) (fst (drun cap k es))).
  Proof.
    induction es as [|e r IH]; intros k id n Hnr H Hc.
    - cbn. now rewrite Nat.add_0_r.
    - cbn [count_inserts] in *. rewrite drun_fst.
      cbn [no_restart forallb] in Hnr. apply andb_prop in Hnr as [He Hnr]. apply negb_true_iff in He.
      pose proof (dstep_recent k e id n He H) as H1.
      destruct (inserts k e); cbn [Nat.add] in Hc |- *.
      + rewrite Nat.add_succ_r in Hc |- *. apply (IH _ id (S n)); auto. apply H1. lia.
      + apply IH; auto. apply H1. lia.
  Qed.

  (* An own message id (registered by add_outbound_message before the first transmission) is not
     acted on when it comes back, as long as fewer than cap other entries were inserted since. *)
  Theorem own_id_ignored k id es :
    no_restart es = true ->
    (count_inserts (remember cap k id) es < cap)%nat ->
    snd (dstep cap (fst (drun cap (remember cap k id) es)) (EvIn id)) = false.
  Proof.
    intros Hnr H.
    assert (H0 : In id (firstn 1 (remember cap k id))).
    { unfold remember. rewrite firstn_firstn, Nat.min_l by lia. now left. }
    apply (drun_recent es _ id 1 Hnr) in H0; [|lia].
    assert (K : is_known (fst (drun cap (remember cap k id) es)) id = true).
    { apply is_known_In. rewrite <- (firstn_skipn (1 + count_inserts (remember cap k id) es)). apply in_or_app. now left. }
    cbn [dstep]. now rewrite K.
  Qed.

  Hypothesis cap_pos : (0 < cap)%nat.

  Lemma remember_head k id : is_known (remember cap k id) id = true.
  Proof.
    unfold remember. destruct cap as [|c]; [lia|]. cbn [firstn]. apply is_known_In. now left.
  Qed.

  Lemma memory_bounded k e : (length (fst (dstep cap k e)) <= Nat.max cap (length k))%nat.
  Proof.
    destruct e as [j|j|o|]; cbn [dstep]; [|destruct (is_known k j)| |]; cbn [fst]; unfold remember;
      rewrite ?firstn_length; cbn [length]; lia.
  Qed.

  Lemma api_op_keeps_memory k o : dstep cap k (EvOp o) = (k, false).
  Proof. reflexivity. Qed.

  (* public operations are transparent: a run with the operation events removed ends in the same memory *)
  Definition is_op (e : ev) : bool := match e with EvOp _ => true | _ => false end.
  Lemma drun_without_ops es : forall k,
    fst (drun cap k es) = fst (drun cap k (filter (fun e => negb (is_op e)) es)).
  Proof.
    induction es as [|e r IH]; intros k; [reflexivity|].
    destruct e as [j|j|o|]; cbn [filter is_op negb]; rewrite ?drun_fst; cbn [dstep fst]; try apply IH.
  Qed.
End DedupProofs.
