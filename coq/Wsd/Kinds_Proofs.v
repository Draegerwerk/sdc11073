From Coq Require Import List ZArith.
From SDC Require Import Wsd.Udp Wsd.Udp_Proofs Wsd.Gen_Params Wsd.Gen_Kinds Wsd.Kinds.
Import ListNotations.
Open Scope Z_scope.

(* The table traced from the code is the demanded one.  A changed choice in wsdimpl.py changes Gen_Kinds.v and
   breaks these two proofs. *)
Lemma kind_pset_ok : forall k, impl_kind_pset k = spec_pset k.
Proof. intros []; reflexivity. Qed.

Lemma kind_dest_ok : forall k, impl_kind_dest k = spec_dest k.
Proof. intros []; reflexivity. Qed.

Lemma kind_params_ok k : kind_params k = spec_params k.
Proof. unfold kind_params, spec_params. now rewrite kind_pset_ok. Qed.

Lemma spec_params_cases k :
  spec_params k = if is_multicast_kind k then multicast_params else unicast_params.
Proof. unfold spec_params, spec_pset. now destruct (is_multicast_kind k). Qed.

Lemma spec_params_wf k : wf (spec_params k).
Proof.
  rewrite spec_params_cases. destruct (is_multicast_kind k); apply wfb_wf; reflexivity.
Qed.

Lemma kind_count_ok_true k : kind_count_ok k = true.
Proof. unfold kind_count_ok. rewrite schedule_length, kind_params_ok. apply Nat.eqb_refl. Qed.
