(* The remote-service table (Wsd/Table.v) as a function of the history: every handler acts on it as fold_left apply_tev
   over the announcements and byes the message stands for (handle_remote), and a table built that way holds, per
   endpoint reference, the highest version announced since the last Bye (table_max_version). *)
From Coq Require Import List ZArith Bool Lia.
From SDC Require Import Location.Quote Location.Proofs Wsd.Match Wsd.Table.
Import ListNotations.
Open Scope Z_scope.

Lemma bytes_eqb_sym : forall a b, bytes_eqb a b = bytes_eqb b a.
Proof. intros a b. apply eq_true_iff_eq. rewrite !bytes_eqb_eq. split; congruence. Qed.

Lemma t_get_set_same : forall k v t, t_get k (t_set k v t) = Some v.
Proof.
  intros k v t. induction t as [|[k' v'] r IH]; simpl.
  - now rewrite bytes_eqb_refl.
  - destruct (bytes_eqb k k') eqn:E; simpl; rewrite E; auto.
Qed.

Lemma t_get_set_other : forall k k' v t, bytes_eqb k k' = false -> t_get k (t_set k' v t) = t_get k t.
Proof.
  intros k k' v t H. induction t as [|[k2 v2] r IH]; simpl.
  - now rewrite H.
  - destruct (bytes_eqb k' k2) eqn:E; simpl.
    + apply bytes_eqb_eq in E. subst k2. now rewrite H.
    + destruct (bytes_eqb k k2); auto.
Qed.

Lemma t_get_del_same : forall k t, t_get k (t_del k t) = None.
Proof.
  intros k t. unfold t_del. induction t as [|[k' v'] r IH]; simpl; auto.
  destruct (bytes_eqb k k') eqn:E; simpl; auto. now rewrite E.
Qed.

Lemma t_get_del_other : forall k k' t, bytes_eqb k k' = false -> t_get k (t_del k' t) = t_get k t.
Proof.
  intros k k' t H. unfold t_del. induction t as [|[k2 v2] r IH]; simpl; auto.
  destruct (bytes_eqb k' k2) eqn:E; simpl.
  - apply bytes_eqb_eq in E. subst k2. now rewrite H.
  - destruct (bytes_eqb k k2); auto.
Qed.

Lemma zmax_cons : forall x r, r <> [] -> zmax (x :: r) = Z.max x (zmax r).
Proof. intros x [|y r] H; [congruence|reflexivity]. Qed.

Lemma add_remote_other : forall t s k, bytes_eqb k (s_epr s) = false -> t_get k (add_remote t s) = t_get k t.
Proof.
  intros t s k H. unfold add_remote. destruct (negb (nonempty (s_epr s))); auto.
  destruct (t_get (s_epr s) t) as [kn|]; [|now apply t_get_set_other].
  destruct (s_mdv s =? s_mdv kn); [now apply t_get_set_other|].
  destruct (s_mdv kn <? s_mdv s); [now apply t_get_set_other|reflexivity].
Qed.

(* _add_remote_service on a non-empty endpoint reference: what the table holds for it afterwards *)
Lemma add_remote_same : forall t s, s_epr s <> [] ->
  t_get (s_epr s) (add_remote t s) =
  Some (match t_get (s_epr s) t with
        | None => s
        | Some k => if s_mdv s =? s_mdv k then merge k s else if s_mdv k <? s_mdv s then s else k
        end).
Proof.
  intros t s H. unfold add_remote. rewrite nonempty_true by assumption. cbn [negb].
  destruct (t_get (s_epr s) t) as [k|] eqn:G; [|apply t_get_set_same].
  destruct (s_mdv s =? s_mdv k); [apply t_get_set_same|].
  destruct (s_mdv k <? s_mdv s); [apply t_get_set_same|exact G].
Qed.

Lemma add_after_del : forall t s, s_epr s <> [] -> t_get (s_epr s) (add_remote (t_del (s_epr s) t) s) = Some s.
Proof. intros t s H. now rewrite add_remote_same, t_get_del_same. Qed.

Definition table_entry_ok (epr : bytes) (rh : list tev) (e : option service) : Prop :=
  match e with
  | None => recent epr rh = []
  | Some s => recent epr rh <> [] /\ s_mdv s = zmax (recent epr rh) /\ s_epr s = epr
  end.

Theorem table_max_version : forall rh epr, epr <> [] ->
  table_entry_ok epr rh (t_get epr (table_of rh)).
Proof.
  intros rh epr Hne. unfold table_entry_ok. induction rh as [|[s|e] r IH].
  - reflexivity.
  - cbn [table_of recent]. destruct (bytes_eqb epr (s_epr s)) eqn:E.
    + apply bytes_eqb_eq in E. subst epr. rewrite add_remote_same by assumption.
      split; [discriminate|]. destruct (t_get (s_epr s) (table_of r)) as [kn|].
      * destruct IH as (Hr & Hm & He). rewrite zmax_cons by assumption.
        destruct (Z.eqb_spec (s_mdv s) (s_mdv kn)); [cbn [merge s_mdv s_epr]; split; [lia|exact He]|].
        destruct (Z.ltb_spec (s_mdv kn) (s_mdv s)); split; auto; lia.
      * now rewrite IH.
    + rewrite add_remote_other by auto. exact IH.
  - cbn [table_of recent]. destruct (bytes_eqb epr e) eqn:E.
    + apply bytes_eqb_eq in E. subst e. rewrite t_get_del_same. reflexivity.
    + rewrite t_get_del_other by auto. exact IH.
Qed.

Definition apply_tev (t : table) (e : tev) : table :=
  match e with TAnn s => add_remote t s | TBye epr => t_del epr t end.

Definition tevs_of (allow : bool) (m : msg) : list tev :=
  match m with
  | MHello a s => match eff_iid allow a with Some iid => [TAnn (with_iid iid s)] | None => [] end
  | MBye epr _ => [TBye epr]
  | MProbeMatches a ms => match eff_iid allow a with Some iid => map (fun s => TAnn (with_iid iid s)) ms | None => [] end
  | MResolveMatches a (Some s) => match eff_iid allow a with Some iid => [TAnn (with_iid iid s)] | None => [] end
  | _ => []
  end.

Lemma table_of_app : forall l rh, fold_left apply_tev l (table_of rh) = table_of (rev l ++ rh).
Proof.
  induction l as [|e l IH]; intros rh; simpl; auto.
  rewrite <- app_assoc. simpl. rewrite <- IH. destruct e; reflexivity.
Qed.

Section Handlers.
  Variable M : mconsts.
  Variable fixed : bool.
  Variable split : bytes -> sres.
  Variable allow : bool.

  Lemma probe_matches_table : forall ms t iid,
    fst (probe_matches t iid ms) = fold_left apply_tev (map (fun s => TAnn (with_iid iid s)) ms) t.
  Proof.
    induction ms as [|m r IH]; intros t iid; simpl; auto.
    destruct (probe_matches (add_remote t (with_iid iid m)) iid r) as [t2 os] eqn:E. simpl.
    rewrite <- IH, E. reflexivity.
  Qed.

  Lemma probe_matches_outs : forall ms t iid,
    Forall (fun o => exists e, o = OResolve e) (snd (probe_matches t iid ms)).
  Proof.
    induction ms as [|m r IH]; intros t iid; simpl; [constructor|].
    specialize (IH (add_remote t (with_iid iid m)) iid).
    destruct (probe_matches (add_remote t (with_iid iid m)) iid r) as [t2 os]. simpl.
    apply Forall_app. split; [|exact IH].
    destruct (s_xaddrs m), (s_types m), (s_scopes m); simpl; repeat constructor; eauto.
  Qed.

  Theorem handle_remote : forall d m,
    remote (fst (handle M fixed split allow d m)) = fold_left apply_tev (tevs_of allow m) (remote d) /\
    local (fst (handle M fixed split allow d m)) = local d.
  Proof.
    intros d m. destruct m as [a s|epr bx|types scopes|a ms|epr|a [s|]|]; simpl; auto;
      try (destruct (eff_iid allow a) as [iid|]; simpl; auto).
    - destruct (filter_services M fixed split (t_values (local d)) types scopes); simpl; auto.
    - destruct (probe_matches (remote d) iid ms) as [t os] eqn:E. simpl. split; auto.
      rewrite <- probe_matches_table, E. reflexivity.
    - destruct (t_get epr (local d)); simpl; auto.
  Qed.

  (* what a handler may send: a Resolve; a ProbeMatch, in answer to a Probe; a ResolveMatch, in answer to a Resolve
     for a published endpoint reference *)
  Lemma handle_out_inv : forall d m o, In o (snd (handle M fixed split allow d m)) ->
    (exists e, o = OResolve e) \/
    (exists types scopes s, m = MProbe types scopes /\ o = OProbeMatch s) \/
    (exists e s, m = MResolve e /\ t_get e (local d) = Some s /\ o = OResolveMatch s).
  Proof.
    intros d m o. destruct m as [a sv|epr bx|types scopes|a ms|epr|a [sv|]|]; simpl; try tauto;
      try (destruct (eff_iid allow a) as [iid|]; simpl; try tauto).
    - destruct (s_xaddrs sv); simpl; [intros [<-|[]]; eauto|tauto].
    - destruct (filter_services M fixed split (t_values (local d)) types scopes); simpl; [|tauto].
      rewrite in_map_iff. intros (x & <- & _). right. left. eauto.
    - pose proof (probe_matches_outs ms (remote d) iid) as F.
      destruct (probe_matches (remote d) iid ms) as [t os]. simpl in *. intros H. left.
      exact (proj1 (Forall_forall _ _) F o H).
    - destruct (t_get epr (local d)) as [k|] eqn:G; simpl; [|tauto]. intros [<-|[]]. right. right. eauto.
  Qed.
End Handlers.

Section History.
  Variable M : mconsts.
  Variable fixed : bool.
  Variable split : bytes -> sres.
  Variable allow : bool.

  Fixpoint handle_all (d : dstate) (ms : list msg) : dstate :=
    match ms with
    | [] => d
    | m :: r => handle_all (fst (handle M fixed split allow d m)) r
    end.

  Lemma handle_all_remote : forall ms d,
    remote (handle_all d ms) = fold_left apply_tev (flat_map (tevs_of allow) ms) (remote d).
  Proof.
    induction ms as [|m r IH]; intros d; simpl; auto.
    rewrite IH. destruct (handle_remote M fixed split allow d m) as [-> _]. now rewrite fold_left_app.
  Qed.
End History.
