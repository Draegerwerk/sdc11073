(* C08 -- proofs about the subscription life-cycle model (Eventing/Model.v). *)
From Coq Require Import ZArith List Bool String Lia.
From SDC Require Import Common.ListFacts Common.Corr Eventing.Gen_Consts Eventing.Model.
Import ListNotations.
Open Scope Z_scope.
Open Scope list_scope.

Lemma lprefix_refl : forall a, lprefix a a = true.
Proof. induction a as [|x a IH]; simpl; [reflexivity|]. now rewrite Ascii.eqb_refl, IH. Qed.

Lemma ends_with_refl : forall s, ends_with s s = true.
Proof. intros s. unfold ends_with. apply lprefix_refl. Qed.

Lemma matches_In : forall f a, In a f -> matches f a = true.
Proof.
  intros f a H. unfold matches. apply existsb_exists. exists a. split; [exact H|apply ends_with_refl].
Qed.

Lemma suffix_free_spec : forall l, suffix_free l = true ->
  forall a f, In a l -> In f l -> ends_with f a = true -> f = a.
Proof.
  intros l H a f Ha Hf E. unfold suffix_free in H.
  rewrite forallb_forall in H. specialize (H a Ha). rewrite forallb_forall in H. specialize (H f Hf).
  rewrite E in H. simpl in H. now apply String.eqb_eq.
Qed.

Lemma matches_iff_In : forall l, suffix_free l = true ->
  forall f a, incl f l -> In a l -> (matches f a = true <-> In a f).
Proof.
  intros l SF f a Hf Ha. split.
  - unfold matches. rewrite existsb_exists. intros [x [Hx E]].
    assert (x = a) by (eapply suffix_free_spec; eauto). now subst.
  - apply matches_In.
Qed.

(* [suffix_free] reverses both strings anew for each of the n^2 pairs, with the quadratic [rev]; the same
   test on strings reversed once each is what the kernel is given to evaluate *)
Definition suffix_free_rev (l : list string) : bool :=
  let rl := map (fun s => (s, rev_append (list_ascii_of_string s) [])) l in
  forallb (fun a => forallb (fun f => implb (lprefix (snd a) (snd f)) (String.eqb (fst f) (fst a))) rl) rl.

Lemma suffix_free_rev_eq l : suffix_free_rev l = suffix_free l.
Proof.
  unfold suffix_free_rev, suffix_free, ends_with.
  rewrite forallb_map. apply forallb_ext. intros a. rewrite forallb_map. apply forallb_ext. intros f.
  cbn [fst snd]. now rewrite <- !rev_alt.
Qed.

Lemma sdc_actions_suffix_free : suffix_free sdc_actions = true.
Proof. rewrite <- suffix_free_rev_eq. vm_compute. reflexivity. Qed.

Lemma round2_bounds : forall e, 25 * e - 1 <= 2 * round2 e <= 25 * e + 1.
Proof.
  intros e. unfold round2. set (q := 25 * e).
  pose proof (Zmod_even q) as Hq. pose proof (Z_div_mod_eq_full q 2) as Dq.
  destruct (Z.even q).
  - lia.
  - set (f := (q - 1) / 2).
    pose proof (Z_div_mod_eq_full (q - 1) 2) as Df. fold f in Df.
    assert ((q - 1) mod 2 = 0) as M.
    { replace (q - 1) with (q + (-1) * 2 + 1) by lia. rewrite <- Zplus_mod_idemp_l.
      rewrite Z_mod_plus_full. rewrite Hq. reflexivity. }
    destruct (Z.even f); lia.
Qed.

Lemma round2_mono : forall a b, a <= b -> round2 a <= round2 b.
Proof.
  intros a b H. destruct (Z.eq_dec a b) as [->|N]; [lia|].
  pose proof (round2_bounds a). pose proof (round2_bounds b). lia.
Qed.

Lemma rem_cs_pos : forall s now, (0 <? rem_cs s now) = true <-> 0 < rem_ticks s now.
Proof. intros s now. unfold rem_cs. pose proof (round2_bounds (rem_ticks s now)). lia. Qed.

Lemma rem_cs_le_grant : forall s now, s_started s <= now -> rem_cs s now <= Z.max (round2 (s_expire s)) 0.
Proof.
  intros s now H. unfold rem_cs, rem_ticks.
  pose proof (round2_mono (s_expire s - (now - s_started s)) (s_expire s)). lia.
Qed.

Lemma rem_cs_at_start : forall s, rem_cs s (s_started s) = Z.max (round2 (s_expire s)) 0.
Proof. intros s. unfold rem_cs, rem_ticks. do 2 f_equal. lia. Qed.

(* the property's notion of a live subscription: no booleans, no rounding *)
Definition live (c : cfg) (s : sub) (now : Z) : Prop :=
  s_closed s = false /\ now - s_started s < s_expire s /\ s_unsub s = None /\ s_errors s < c_maxerr c.

Lemma is_valid_spec : forall c s now,
  is_valid c s now = true <-> s_closed s = false /\ now - s_started s < s_expire s /\ s_errors s < c_maxerr c.
Proof.
  intros c s now. unfold is_valid.
  rewrite !andb_true_iff, rem_cs_pos, negb_true_iff, Z.ltb_lt. unfold rem_ticks. intuition lia.
Qed.

Lemma is_none_true {A} : forall o : option A, is_none o = true <-> o = None.
Proof. intros [x|]; simpl; split; intros H; try discriminate; reflexivity. Qed.

Lemma deliverable_live : forall c s now, deliverable c s now = true <-> live c s now.
Proof.
  intros c s now. unfold deliverable, live. rewrite andb_true_iff, is_valid_spec, is_none_true. intuition.
Qed.

Lemma live_b_live : forall c s now, live_b c s now = true <-> live c s now.
Proof.
  intros c s now. unfold live_b, live.
  rewrite !andb_true_iff, negb_true_iff, is_none_true, !Z.ltb_lt. intuition.
Qed.

Lemma live_b_deliverable : forall c s now, live_b c s now = deliverable c s now.
Proof.
  intros. apply eq_true_iff_eq. rewrite live_b_live, deliverable_live. tauto.
Qed.

Lemma live_unsub : forall c s now, live c s now -> s_unsub s = None.
Proof. intros c s now L. apply L. Qed.

(* what a Subscribe or Renew response promises about a grant and about the centiseconds it is answered as *)
Lemma grant_spec : forall c e,
  grant c e <= c_maxd c /\ (forall d, e = Some d -> grant c e <= d) /\ (e = None -> grant c e = c_maxd c).
Proof. intros c [d|]; simpl; repeat split; intros; try discriminate; try lia. injection H as <-. lia. Qed.

Lemma granted_cs_bounds : forall c e, let cs := Z.max (round2 (grant c e)) 0 in
  cs <= Z.max (round2 (c_maxd c)) 0 /\ (forall d, e = Some d -> cs <= Z.max (round2 d) 0).
Proof.
  intros c e cs. unfold cs. destruct (grant_spec c e) as (G1 & G2 & _).
  split; [pose proof (round2_mono _ _ G1); lia|]. intros d E. pose proof (round2_mono _ _ (G2 d E)). lia.
Qed.

Definition msgs_of (r : state * (resp * list msg)) : list msg := snd (snd r).
Definition resp_of (r : state * (resp * list msg)) : resp := fst (snd r).

Definition same_static (s s' : sub) : Prop :=
  s_id s' = s_id s /\ s_filter s' = s_filter s /\ s_notify s' = s_notify s /\ s_end s' = s_end s.

Lemma same_static_id : forall s s', same_static s s' -> s_id s' = s_id s.
Proof. intros s s' S. exact (proj1 S). Qed.

Record same_but_errors (s s' : sub) : Prop := {
  sbe_static : same_static s s';
  sbe_started : s_started s' = s_started s;
  sbe_expire : s_expire s' = s_expire s;
  sbe_closed : s_closed s' = s_closed s;
  sbe_unsub : s_unsub s' = s_unsub s
}.

Lemma same_static_refl : forall s, same_static s s.
Proof. intros s. repeat split. Qed.

Lemma same_static_trans : forall a b d, same_static a b -> same_static b d -> same_static a d.
Proof. intros a b d [? [? [? ?]]] [? [? [? ?]]]. repeat split; congruence. Qed.

Lemma same_but_errors_refl : forall s, same_but_errors s s.
Proof. intros s. constructor; repeat split. Qed.

Lemma set_errors_same : forall s e, same_but_errors s (set_errors s e).
Proof. intros s e. constructor; repeat split. Qed.

Lemma exchange_state_fail : forall sync d o, o <> OOk -> snd (exchange_state sync d o) = false.
Proof.
  intros sync d o H. unfold exchange_state. destruct sync; simpl.
  - destruct (d =? 2); [reflexivity|]. destruct o; try reflexivity. congruence.
  - destruct o; try reflexivity. congruence.
Qed.

Lemma post_fail : forall c p n u o, o <> OOk -> snd (post c p n u o) = false.
Proof.
  intros c p n u o H. unfold post. destruct (pool_get p n u) as [p1 d].
  pose proof (exchange_state_fail (c_sync c) d o H) as E.
  destruct (exchange_state (c_sync c) d o) as [d' ok]. simpl in *. exact E.
Qed.

(* what one report does to a table entry: only notify_errors changes, and only for an addressed entry;
   every outcome of the exchange but OOk counts one more error *)
Definition sent (c : cfg) (now : Z) (a : string) (outs : list outcome) (s s' : sub) : Prop :=
  same_but_errors s s' /\
  (matches (s_filter s) a && deliverable c s now = true -> outcome_at outs (s_notify s) <> OOk ->
   s' = set_errors s (s_errors s + 1)).

Lemma send_all_spec : forall c now a outs tbl p,
  Forall2 (sent c now a outs) tbl (fst (fst (send_all c now a outs tbl p))) /\
  snd (send_all c now a outs tbl p) =
  map (fun s => Notify (s_id s) a (s_notify s))
      (filter (fun s => matches (s_filter s) a && deliverable c s now) tbl).
Proof.
  intros c now a outs tbl. induction tbl as [|s r IH]; intros p; simpl; [split; constructor|].
  pose proof (post_fail c p (s_notify s) (s_id s) (outcome_at outs (s_notify s))) as PF.
  destruct (matches (s_filter s) a && deliverable c s now) eqn:B.
  - destruct (post c p (s_notify s) (s_id s) (outcome_at outs (s_notify s))) as [p1 ok].
    destruct (IH p1) as [T M]. destruct (send_all c now a outs r p1) as [[r' p2] ms]. simpl in *.
    split; [constructor; [|exact T]|now rewrite M].
    split; [destruct ok; apply set_errors_same|]. intros _ O. now rewrite (PF O).
  - destruct (IH p) as [T M]. destruct (send_all c now a outs r p) as [[r' p2] ms]. simpl in *.
    split; [constructor; [|exact T]|exact M]. split; [apply same_but_errors_refl|intros C; rewrite B in C; discriminate C].
Qed.

Lemma housekeep_table : forall c now tbl p,
  fst (housekeep c now tbl p) = filter (fun s => negb (obsolete c now s && negb (s_closed s))) tbl.
Proof.
  intros c now tbl. induction tbl as [|s r IH]; intros p; simpl; [reflexivity|].
  destruct (obsolete c now s && negb (s_closed s)); simpl.
  - apply IH.
  - specialize (IH p). destruct (housekeep c now r p) as [r' p']. simpl in *. now rewrite IH.
Qed.

Lemma live_not_obsolete : forall c s now, live c s now -> obsolete c now s = false.
Proof.
  intros c s now L. unfold obsolete. rewrite (live_unsub c s now L).
  apply deliverable_live, andb_true_iff in L as [-> _]. reflexivity.
Qed.

Lemma tfind_Some : forall k tbl s, tfind k tbl = Some s -> In s tbl /\ s_id s = k.
Proof.
  intros k tbl. induction tbl as [|x r IH]; simpl; intros s H; [discriminate|].
  destruct (s_id x =? k) eqn:E.
  - inversion H; subst. split; [now left|lia].
  - destruct (IH _ H) as [? ?]. split; [now right|assumption].
Qed.

Lemma tfind_None : forall k tbl, tfind k tbl = None -> forall s, In s tbl -> s_id s <> k.
Proof.
  intros k tbl. induction tbl as [|x r IH]; simpl; intros H s Hs; [contradiction|].
  destruct (s_id x =? k) eqn:E; [discriminate|].
  destruct Hs as [->|Hs]; [lia|]. now apply IH.
Qed.

Lemma tfind_NoDup : forall tbl s, NoDup (map s_id tbl) -> In s tbl -> tfind (s_id s) tbl = Some s.
Proof.
  induction tbl as [|x r IH]; simpl; intros s ND Hs; [contradiction|].
  inversion ND as [|? ? NI ND']; subst.
  destruct Hs as [->|Hs].
  - now rewrite Z.eqb_refl.
  - destruct (s_id x =? s_id s) eqn:E.
    + exfalso. apply NI. apply Z.eqb_eq in E. rewrite E. now apply in_map.
    + now apply IH.
Qed.

(* [tset s'] rewrites exactly the entry that [tfind (s_id s')] returns *)
Lemma tset_split : forall s s' tbl, tfind (s_id s') tbl = Some s ->
  exists l1 l2, tbl = l1 ++ s :: l2 /\ tset s' tbl = l1 ++ s' :: l2.
Proof.
  intros s s' tbl. induction tbl as [|x r IH]; simpl; intros H; [discriminate|].
  destruct (s_id x =? s_id s').
  - inversion H; subst. exists [], r. auto.
  - destruct (IH H) as [l1 [l2 [-> ->]]]. exists (x :: l1), l2. auto.
Qed.

Lemma tset_ids : forall s' tbl, map s_id (tset s' tbl) = map s_id tbl.
Proof.
  intros s' tbl. induction tbl as [|x r IH]; simpl; [reflexivity|].
  destruct (s_id x =? s_id s') eqn:E; simpl; [f_equal; lia|now rewrite IH].
Qed.

Definition known (st : state) (i : ident) : Prop :=
  exists k s, i = Id k /\ In s (st_table st) /\ s_id s = k /\ s_unsub s = None.

Lemma lookup_Some : forall st i s, lookup st i = Some s ->
  i = Id (s_id s) /\ tfind (s_id s) (st_table st) = Some s /\ s_unsub s = None.
Proof.
  intros st [k|] s; simpl; [|discriminate].
  destruct (tfind k (st_table st)) as [x|] eqn:T; [|discriminate]. destruct (tfind_Some _ _ _ T) as [_ <-].
  destruct (s_unsub x) eqn:U; simpl; [discriminate|]. intros H; inversion H; subst. auto.
Qed.

Lemma lookup_unknown : forall st i, ~ known st i -> lookup st i = None.
Proof.
  intros st i NK. destruct (lookup st i) as [s|] eqn:E; [|reflexivity].
  exfalso. apply NK. destruct (lookup_Some _ _ _ E) as [? [T ?]]. destruct (tfind_Some _ _ _ T).
  exists (s_id s), s. auto.
Qed.

Lemma lookup_known : forall st i, NoDup (map s_id (st_table st)) -> known st i ->
  exists s, lookup st i = Some s.
Proof.
  intros st i ND [k [s [-> [Hs [Hk U]]]]]. exists s. simpl. subst k.
  rewrite (tfind_NoDup _ _ ND Hs). now rewrite U.
Qed.

Lemma report_spec : forall c st a outs,
  Forall2 (sent c (st_now st) a outs) (st_table st) (st_table (fst (step c st (Report a outs)))) /\
  msgs_of (step c st (Report a outs)) =
  map (fun s => Notify (s_id s) a (s_notify s))
      (filter (fun s => matches (s_filter s) a && deliverable c s (st_now st)) (st_table st)).
Proof.
  intros c st a outs. unfold msgs_of. simpl.
  pose proof (send_all_spec c (st_now st) a outs (st_table st) (st_pool st)) as H.
  destruct (send_all c (st_now st) a outs (st_table st) (st_pool st)) as [[t' p'] ms]. exact H.
Qed.

Lemma hk_table : forall c st,
  st_table (fst (step c st Housekeeping)) =
  filter (fun s => negb (obsolete c (st_now st) s && negb (s_closed s))) (st_table st).
Proof.
  intros c st. simpl. rewrite <- (housekeep_table c (st_now st) (st_table st) (st_pool st)).
  destruct (housekeep c (st_now st) (st_table st) (st_pool st)). reflexivity.
Qed.

Lemma step_mono : forall c st o,
  st_next st <= st_next (fst (step c st o)) /\ st_now st <= st_now (fst (step c st o)).
Proof.
  intros c st o. destruct o as [q|i e|i|i|dt|a outs| |se outs]; simpl; try lia.
  - destruct (accepts c q); simpl; lia.
  - destruct (lookup st i); simpl; lia.
  - destruct (lookup st i); simpl; lia.
  - destruct (lookup st i); simpl; lia.
  - destruct (send_all c (st_now st) a outs (st_table st) (st_pool st)) as [[t' p'] ms]. simpl. lia.
  - destruct (housekeep c (st_now st) (st_table st) (st_pool st)) as [t' p']. simpl. lia.
Qed.

(* The table after an operation: the entries the operation keeps, in order, each possibly updated, then
   possibly a new one.  [evolves] lists the updates there are; everything the theorems say about tables
   is read off this description. *)
Definition kept (c : cfg) (st : state) (o : op) : list sub :=
  match o with
  | Housekeeping => filter (fun s => negb (obsolete c (st_now st) s && negb (s_closed s))) (st_table st)
  | Stop _ _ => []
  | _ => st_table st
  end.

Definition added (c : cfg) (st : state) (o : op) : list sub :=
  match o with
  | Subscribe q => if accepts c q then [new_sub c st q] else []
  | _ => []
  end.

Inductive evolves (c : cfg) (st : state) (o : op) (s : sub) : sub -> Prop :=
| ev_same : evolves c st o s s
| ev_renew e : o = Renew (Id (s_id s)) e -> s_unsub s = None -> evolves c st o s (set_grant s (st_now st) (grant c e))
| ev_unsub : o = Unsubscribe (Id (s_id s)) -> s_unsub s = None -> evolves c st o s (set_unsub s (st_now st))
| ev_report a outs s' : o = Report a outs -> same_but_errors s s' -> evolves c st o s s'.

Lemma step_table_shape : forall c st o, exists t',
  st_table (fst (step c st o)) = t' ++ added c st o /\ Forall2 (evolves c st o) (kept c st o) t'.
Proof.
  intros c st o.
  pose proof (Forall2_same (evolves c st o) (ev_same c st o)) as Same.
  assert (exists t', st_table st = t' ++ [] /\ Forall2 (evolves c st o) (st_table st) t') as Keep.
  { exists (st_table st). rewrite app_nil_r. auto. }
  assert (forall s s', tfind (s_id s') (st_table st) = Some s -> evolves c st o s s' ->
            exists t', tset s' (st_table st) = t' ++ [] /\ Forall2 (evolves c st o) (st_table st) t') as Upd.
  { intros s s' T Ev. destruct (tset_split _ s' _ T) as [l1 [l2 [-> ->]]].
    eexists. rewrite app_nil_r. split; [reflexivity|].
    apply Forall2_app; [apply Same|constructor; [exact Ev|apply Same]]. }
  destruct o as [q|i e|i|i|dt|a outs| |se outs]; simpl.
  - destruct (accepts c q); simpl; [eauto|exact Keep].
  - destruct (lookup st i) as [s|] eqn:L; simpl; [|exact Keep].
    destruct (lookup_Some _ _ _ L) as [-> [T U]]. apply (Upd s); [exact T|now apply ev_renew].
  - destruct (lookup st i); exact Keep.
  - destruct (lookup st i) as [s|] eqn:L; simpl; [|exact Keep].
    destruct (lookup_Some _ _ _ L) as [-> [T U]]. apply (Upd s); [exact T|now apply ev_unsub].
  - exact Keep.
  - eexists. rewrite app_nil_r. split; [reflexivity|].
    eapply Forall2_impl; [|exact (proj1 (report_spec c st a outs))].
    intros x y [S _]. now apply (ev_report c st _ x a outs).
  - eexists. rewrite app_nil_r. split; [exact (hk_table c st)|apply Same].
  - exists []. split; [reflexivity|constructor].
Qed.

Lemma kept_incl : forall c st o, incl (kept c st o) (st_table st).
Proof. intros c st o. destruct o; simpl; try apply incl_refl; [apply incl_filter|intros x []]. Qed.

Lemma step_table_In : forall c st o s', In s' (st_table (fst (step c st o))) ->
  (exists s, In s (st_table st) /\ evolves c st o s s') \/
  (exists q, o = Subscribe q /\ accepts c q = true /\ s' = new_sub c st q).
Proof.
  intros c st o s' H. destruct (step_table_shape c st o) as [t' [E F]]. rewrite E in H.
  apply in_app_iff in H as [H|H].
  - left. destruct (Forall2_In_r _ _ _ _ F H) as [s [Hs Ev]]. exists s. split; [now apply (kept_incl c st o)|exact Ev].
  - right. destruct o as [q| | | | | | | ]; try contradiction. simpl in H. exists q.
    destruct (accepts c q); [destruct H as [<-|[]]; auto|contradiction].
Qed.

Lemma evolves_static : forall c st o s s', evolves c st o s s' -> same_static s s'.
Proof.
  intros c st o s s' [|e _ _|_ _|a outs y _ S]; try exact (sbe_static _ _ S); repeat split.
Qed.

Lemma evolves_unsub : forall c st o s s', evolves c st o s s' -> s_unsub s' = None -> s_unsub s = None.
Proof.
  intros c st o s s' [|e _ U|_ _|a outs y _ S]; auto.
  - simpl. discriminate.
  - now rewrite (sbe_unsub _ _ S).
Qed.

Record wf_sub (c : cfg) (st : state) (s : sub) : Prop := {
  wf_id : s_id s < st_next st;
  wf_open : s_closed s = false;
  wf_started : s_started s <= st_now st;
  wf_expire : s_expire s <= c_maxd c
}.

Record Inv (c : cfg) (st : state) : Prop := {
  inv_nodup : NoDup (map s_id (st_table st));
  inv_wf : forall s, In s (st_table st) -> wf_sub c st s
}.

Lemma Inv_init : forall c, Inv c init.
Proof. intros c. split; simpl; [constructor|contradiction]. Qed.

Lemma evolves_wf : forall c st o s s', evolves c st o s s' -> wf_sub c st s -> wf_sub c st s'.
Proof.
  intros c st o s s' E [Hi Hc Hs He].
  destruct E as [|e _ _|_ _|a outs y _ S]; split; simpl; auto.
  - lia.
  - exact (proj1 (grant_spec c e)).
  - now rewrite (same_static_id _ _ (sbe_static _ _ S)).
  - now rewrite (sbe_closed _ _ S).
  - now rewrite (sbe_started _ _ S).
  - now rewrite (sbe_expire _ _ S).
Qed.

Lemma wf_weaken : forall c st st' s,
  st_next st <= st_next st' -> st_now st <= st_now st' -> wf_sub c st s -> wf_sub c st' s.
Proof. intros c st st' s ? ? [? ? ? ?]. split; try assumption; lia. Qed.

Lemma Inv_step : forall c st o, Inv c st -> Inv c (fst (step c st o)).
Proof.
  intros c st o [ND F]. destruct (step_mono c st o) as [Mn Mt]. split.
  - destruct (step_table_shape c st o) as [t' [-> Ev]]. rewrite map_app.
    rewrite (Forall2_map_eq _ s_id s_id (fun x y H => same_static_id x y (evolves_static c st o x y H)) _ _ Ev).
    destruct o as [q| | | | | | | ]; simpl; rewrite ?app_nil_r; try exact ND;
      [|now apply NoDup_map_filter|constructor].
    destruct (accepts c q); simpl; rewrite ?app_nil_r; [|exact ND].
    (* the new id is the number of subscriptions accepted so far: above all ids in the table *)
    apply NoDup_snoc; [exact ND|]. intros H. apply in_map_iff in H as [x [Hx Hin]].
    pose proof (wf_id _ _ _ (F _ Hin)). lia.
  - intros s' H. apply step_table_In in H as [[s [Hs Ev]]|[q [-> [A ->]]]].
    + apply (wf_weaken c st); [exact Mn|exact Mt|]. exact (evolves_wf _ _ _ _ _ Ev (F _ Hs)).
    + simpl. rewrite A. split; simpl; try lia. exact (proj1 (grant_spec c (q_expires q))).
Qed.

Lemma run_fst : forall c ops st, fst (run c st ops) = fold_left (fun s o => fst (step c s o)) ops st.
Proof.
  intros c ops. induction ops as [|o r IH]; intros st; simpl; [reflexivity|].
  rewrite <- IH. destruct (step c st o) as [st1 ob]. simpl. destruct (run c st1 r). reflexivity.
Qed.

Lemma run_preserves : forall c (P : state -> Prop), (forall st o, P st -> P (fst (step c st o))) ->
  forall ops st, P st -> P (fst (run c st ops)).
Proof. intros c P H ops st. rewrite run_fst. revert st. induction ops; simpl; auto. Qed.

Lemma final_snoc : forall c ops o, final c (ops ++ [o]) = fst (step c (final c ops) o).
Proof. intros c ops o. unfold final. now rewrite !run_fst, fold_left_app. Qed.

Lemma Inv_run : forall c ops st, Inv c st -> Inv c (fst (run c st ops)).
Proof. intros c. exact (run_preserves c (Inv c) (Inv_step c)). Qed.

Lemma Inv_final : forall c ops, Inv c (final c ops).
Proof. intros c ops. apply Inv_run. apply Inv_init. Qed.

Lemma delivery_iff : forall c st a outs k b dest,
  In (Notify k b dest) (msgs_of (step c st (Report a outs))) <->
  b = a /\ exists s, In s (st_table st) /\ s_id s = k /\ dest = s_notify s /\
                     live c s (st_now st) /\ matches (s_filter s) a = true.
Proof.
  intros c st a outs k b dest. rewrite (proj2 (report_spec c st a outs)), in_map_iff. split.
  - intros [s [E Hs]]. apply filter_In in Hs as [Hs B]. apply andb_true_iff in B as [B1 B2].
    inversion E; subst. split; [reflexivity|]. exists s. rewrite <- deliverable_live. auto.
  - intros [-> [s [Hs [<- [-> [L Mt]]]]]]. exists s. split; [reflexivity|].
    apply filter_In. split; [exact Hs|]. rewrite Mt. simpl. now apply deliverable_live.
Qed.

Lemma report_hands_no_end : forall c st a outs k d e,
  ~ In (End k d e) (msgs_of (step c st (Report a outs))).
Proof.
  intros c st a outs k d e. rewrite (proj2 (report_spec c st a outs)), in_map_iff.
  intros [s [E _]]. discriminate.
Qed.

Lemma only_report_and_stop_send : forall c st o,
  match o with Report _ _ | Stop _ _ => True | _ => msgs_of (step c st o) = [] end.
Proof.
  intros c st o. unfold msgs_of. destruct o as [q|i e|i|i|dt|a outs| |se outs]; simpl; auto.
  - destruct (accepts c q); reflexivity.
  - destruct (lookup st i); reflexivity.
  - destruct (lookup st i); reflexivity.
  - destruct (lookup st i); reflexivity.
  - destruct (housekeep c (st_now st) (st_table st) (st_pool st)). reflexivity.
Qed.

Lemma failure_counts : forall c st a outs s,
  In s (st_table st) -> live c s (st_now st) -> matches (s_filter s) a = true ->
  outcome_at outs (s_notify s) <> OOk ->
  In (set_errors s (s_errors s + 1)) (st_table (fst (step c st (Report a outs)))).
Proof.
  intros c st a outs s Hs L M O.
  destruct (Forall2_In_l _ _ _ _ (proj1 (report_spec c st a outs)) Hs) as [y [Hy [_ R]]].
  rewrite <- R; [exact Hy| |exact O]. rewrite M. now apply deliverable_live.
Qed.

Lemma over_limit_not_live : forall c s now, c_maxerr c <= s_errors s -> ~ live c s now.
Proof. intros c s now H [_ [_ [_ L]]]. lia. Qed.

(* entries leave the table only through housekeeping or shutdown *)
Lemma step_keeps_entries : forall c st o s, In s (st_table st) ->
  match o with
  | Housekeeping | Stop _ _ => True
  | _ => exists s', In s' (st_table (fst (step c st o))) /\ same_static s s'
  end.
Proof.
  intros c st o s Hs. destruct (step_table_shape c st o) as [t' [E F]].
  assert (kept c st o = st_table st -> exists s', In s' (st_table (fst (step c st o))) /\ same_static s s') as K.
  { intros Ek. rewrite Ek in F. destruct (Forall2_In_l _ _ _ _ F Hs) as [s' [Hs' Ev]].
    exists s'. rewrite E, in_app_iff. split; [now left|exact (evolves_static _ _ _ _ _ Ev)]. }
  destruct o; auto.
Qed.

(* a granted Subscribe / Renew: the answer, and the entry that is in the table afterwards *)
Lemma subscribe_entry : forall c st q k cs,
  resp_of (step c st (Subscribe q)) = RSub k cs ->
  cs = Z.max (round2 (grant c (q_expires q))) 0 /\ k = st_next st /\
  In (new_sub c st q) (st_table (fst (step c st (Subscribe q)))).
Proof.
  intros c st q k cs. unfold resp_of. simpl. destruct (accepts c q); simpl; [|discriminate].
  intros H. inversion H; subst. split; [exact (rem_cs_at_start (new_sub c st q))|].
  split; [reflexivity|]. apply in_app_iff. right. now left.
Qed.

Lemma renew_entry : forall c st i e cs,
  resp_of (step c st (Renew i e)) = RRenew cs ->
  cs = Z.max (round2 (grant c e)) 0 /\
  exists s0, i = Id (s_id s0) /\ In s0 (st_table st) /\ s_unsub s0 = None /\
    In (set_grant s0 (st_now st) (grant c e)) (st_table (fst (step c st (Renew i e)))).
Proof.
  intros c st i e cs. unfold resp_of. simpl. destruct (lookup st i) as [s0|] eqn:L; simpl; [|discriminate].
  intros H. inversion H; subst. clear H. set (s := set_grant s0 (st_now st) (grant c e)).
  split; [exact (rem_cs_at_start s)|]. exists s0.
  destruct (lookup_Some _ _ _ L) as [-> [T U]]. destruct (tfind_Some _ _ _ T) as [Hs _].
  do 3 (split; [assumption || reflexivity|]).
  destruct (tset_split _ s _ T) as [l1 [l2 [_ ->]]]. apply in_elt.
Qed.

Lemma status_consistent : forall c st i cs,
  resp_of (step c st (GetStatus i)) = RStat cs ->
  fst (step c st (GetStatus i)) = st /\
  exists k s, i = Id k /\ In s (st_table st) /\ s_id s = k /\ s_unsub s = None /\
    cs = Z.max (round2 (s_expire s - (st_now st - s_started s))) 0.
Proof.
  intros c st i cs. unfold resp_of. simpl. destruct (lookup st i) as [s|] eqn:L; simpl; [|discriminate].
  intros H. inversion H; subst. split; [reflexivity|].
  destruct (lookup_Some _ _ _ L) as [-> [T U]]. destruct (tfind_Some _ _ _ T).
  exists (s_id s), s. repeat split; assumption.
Qed.

(* started / expire of an entry change only by a successful Renew naming it *)
Lemma grant_stable : forall c st o s s',
  Inv c st ->
  In s (st_table st) -> In s' (st_table (fst (step c st o))) -> s_id s' = s_id s ->
  (s_started s' = s_started s /\ s_expire s' = s_expire s) \/
  (exists e cs, o = Renew (Id (s_id s)) e /\ resp_of (step c st o) = RRenew cs).
Proof.
  intros c st o s s' I Hs Hs' Hid. pose proof (inv_nodup _ _ I) as ND.
  apply step_table_In in Hs' as [[x [Hx Ev]]|[q [-> [A ->]]]].
  - assert (x = s) as ->.
    { apply (NoDup_map_inj s_id _ _ _ ND Hx Hs). rewrite <- Hid. symmetry. exact (same_static_id _ _ (evolves_static _ _ _ _ _ Ev)). }
    destruct Ev as [|e -> U|_ _|a outs y _ S]; auto.
    + right. exists e. unfold resp_of. simpl. rewrite (tfind_NoDup _ _ ND Hs), U. simpl. eauto.
    + left. split; [exact (sbe_started _ _ S)|exact (sbe_expire _ _ S)].
  - simpl in Hid. pose proof (wf_id _ _ _ (inv_wf _ _ I _ Hs)). lia.
Qed.

Lemma unknown_fault_noop : forall c st i, ~ known st i ->
  (forall e, step c st (Renew i e) = (st, (RFault, []))) /\
  step c st (GetStatus i) = (st, (RFault, [])) /\
  step c st (Unsubscribe i) = (st, (RFault, [])).
Proof.
  intros c st i NK. pose proof (lookup_unknown _ _ NK) as L. simpl. rewrite L. auto.
Qed.

Lemma known_served : forall c st i, NoDup (map s_id (st_table st)) -> known st i ->
  (forall e, exists cs, resp_of (step c st (Renew i e)) = RRenew cs) /\
  (exists cs, resp_of (step c st (GetStatus i)) = RStat cs) /\
  resp_of (step c st (Unsubscribe i)) = RUnsub.
Proof.
  intros c st i ND K. destruct (lookup_known _ _ ND K) as [s L]. unfold resp_of. simpl. rewrite L. simpl.
  repeat split; eauto.
Qed.

Lemma unsubscribed_unknown : forall c st i,
  NoDup (map s_id (st_table st)) ->
  resp_of (step c st (Unsubscribe i)) = RUnsub -> ~ known (fst (step c st (Unsubscribe i))) i.
Proof.
  intros c st i ND. unfold resp_of. simpl. destruct (lookup st i) as [s|] eqn:L; simpl; [|discriminate].
  intros _ [k [x [E [Hx [Hk U]]]]]. simpl in Hx.
  destruct (lookup_Some _ _ _ L) as [-> [T _]]. injection E as <-.
  (* the table holds one entry with this id, and that is the unsubscribed one *)
  assert (x = set_unsub s (st_now st)) as ->; [|discriminate U].
  apply (NoDup_map_inj s_id (tset (set_unsub s (st_now st)) (st_table st))); [now rewrite tset_ids|exact Hx| |exact Hk].
  destruct (tset_split _ (set_unsub s (st_now st)) _ T) as [l1 [l2 [_ ->]]]. apply in_elt.
Qed.

(* an id that was issued and is not known, in a state satisfying the invariant: it stays unknown for ever,
   since ids are never reused and unsubscribed_at is never reset *)
Record gone (c : cfg) (j : Z) (st : state) : Prop := {
  gone_inv : Inv c st;
  gone_issued : j < st_next st;
  gone_unknown : ~ known st (Id j)
}.

Lemma gone_step : forall c j st o, gone c j st -> gone c j (fst (step c st o)).
Proof.
  intros c j st o [I L NK]. split; [now apply Inv_step|pose proof (step_mono c st o); lia|].
  intros [k [s' [E [Hs' [Hid U]]]]]. injection E as <-.
  apply step_table_In in Hs' as [[s [Hs Ev]]|[q [_ [_ ->]]]]; [|simpl in Hid; lia].
  apply NK. exists j, s. rewrite <- Hid, <- (same_static_id _ _ (evolves_static _ _ _ _ _ Ev)).
  pose proof (evolves_unsub _ _ _ _ _ Ev U). auto.
Qed.

Lemma gone_run : forall c j ops st, gone c j st -> gone c j (fst (run c st ops)).
Proof. intros c j. exact (run_preserves c (gone c j) (fun st o => gone_step c j st o)). Qed.

Lemma unknown_forever : forall c ops st k, Inv c st -> k < st_next st -> ~ known st (Id k) ->
  ~ known (fst (run c st ops)) (Id k).
Proof. intros c ops st k I L NK. exact (gone_unknown _ _ _ (gone_run c k ops st (Build_gone _ _ _ I L NK))). Qed.

Definition msg_eq_dec : forall a b : msg, {a = b} + {a <> b}.
Proof. decide equality; try apply Z.eq_dec; try apply string_dec; try apply bool_dec. Defined.

Definition end_of (s : sub) : msg := End (s_id s) (fst (end_dest s)) (snd (end_dest s)).

Lemma end_msgs_eq : forall c now tbl,
  end_msgs c now tbl = map end_of (filter (fun s => deliverable c s now) tbl).
Proof.
  intros c now tbl. unfold deliverable. induction tbl as [|s r IH]; simpl; [reflexivity|].
  rewrite (andb_comm (is_valid c s now)). destruct (is_none (s_unsub s) && is_valid c s now); simpl; now rewrite IH.
Qed.

Lemma count_occ_end_unique : forall (l : list sub) s,
  NoDup (map s_id l) -> In s l -> count_occ msg_eq_dec (map end_of l) (end_of s) = 1%nat.
Proof.
  intros l s ND H. apply NoDup_count_occ'; [|now apply in_map].
  apply (NoDup_map_inv (fun m => match m with Notify k _ _ | End k _ _ => k end)). now rewrite map_map.
Qed.

Lemma stop_exactly_one_end : forall c st outs,
  NoDup (map s_id (st_table st)) ->
  let ms := msgs_of (step c st (Stop true outs)) in
  (forall s, In s (st_table st) -> live c s (st_now st) ->
     count_occ msg_eq_dec ms (End (s_id s) (fst (end_dest s)) (snd (end_dest s))) = 1%nat /\
     (forall d e, In (End (s_id s) d e) ms -> (d, e) = end_dest s)) /\
  (forall k d e, In (End k d e) ms ->
     exists s, In s (st_table st) /\ s_id s = k /\ live c s (st_now st) /\ (d, e) = end_dest s) /\
  (forall k a d, ~ In (Notify k a d) ms) /\
  msgs_of (step c st (Stop false outs)) = [] /\
  st_table (fst (step c st (Stop true outs))) = [] /\ st_table (fst (step c st (Stop false outs))) = [].
Proof.
  intros c st outs ND ms. unfold ms, msgs_of. simpl. rewrite end_msgs_eq.
  set (fl := filter (fun s => deliverable c s (st_now st)) (st_table st)).
  assert (forall k d e, In (End k d e) (map end_of fl) ->
          exists s, In s (st_table st) /\ s_id s = k /\ live c s (st_now st) /\ (d, e) = end_dest s) as Hex.
  { intros k d e H. apply in_map_iff in H as [s [E Hs]]. apply filter_In in Hs as [Hs B].
    exists s. unfold end_of in E. inversion E; subst.
    split; [assumption|split; [reflexivity|split; [now apply deliverable_live|now destruct (end_dest s)]]]. }
  split; [|split; [exact Hex|split; [|repeat split]]].
  - intros s Hs L. split.
    + apply count_occ_end_unique with (l := fl) (s := s).
      * apply NoDup_map_filter. exact ND.
      * apply filter_In. split; [assumption|]. now apply deliverable_live.
    + intros d e Hin. destruct (Hex _ _ _ Hin) as [s' [Hs' [Hid [_ Hd]]]].
      now rewrite <- (NoDup_map_inj s_id _ _ _ ND Hs' Hs Hid).
  - intros k a d H. apply in_map_iff in H as [s [E _]]. discriminate.
Qed.

Lemma housekeeping_exact : forall c st,
  Forall (fun s => s_closed s = false) (st_table st) ->
  st_table (fst (step c st Housekeeping)) = filter (fun s => negb (obsolete c (st_now st) s)) (st_table st).
Proof.
  intros c st F. rewrite hk_table.
  apply filter_ext_in. intros s Hs. rewrite Forall_forall in F. rewrite (F _ Hs). simpl.
  now rewrite andb_true_r.
Qed.

Lemma housekeeping_keeps_live : forall c st s,
  In s (st_table st) -> live c s (st_now st) -> In s (st_table (fst (step c st Housekeeping))).
Proof.
  intros c st s Hs L. rewrite hk_table.
  apply filter_In. split; [exact Hs|]. rewrite (live_not_obsolete c s _ L). reflexivity.
Qed.

Lemma fresh_subscription_live : forall c st q,
  0 < c_maxerr c -> 0 < c_maxd c -> (forall d, q_expires q = Some d -> 0 < d) ->
  live c (new_sub c st q) (st_now st).
Proof.
  intros c st q He Hd Hq. unfold live, new_sub. simpl. repeat split; try lia.
  destruct (q_expires q) as [d|]; simpl; [specialize (Hq d eq_refl)|]; lia.
Qed.

Lemma msg_eqb_refl : forall m, msg_eqb m m = true.
Proof.
  intros [k a d|k d e]; simpl; rewrite ?Z.eqb_refl, ?String.eqb_refl; simpl; [reflexivity|].
  now destruct e.
Qed.

Lemma check_C08_holds : forall c ops st, check_C08 c st ops = true.
Proof.
  intros c ops. induction ops as [|o r IH]; intros st; simpl; [reflexivity|].
  pose proof (only_report_and_stop_send c st o) as Quiet. unfold msgs_of in Quiet.
  destruct (step c st o) as [st1 [rs ms]] eqn:S. rewrite IH, andb_true_r. simpl in Quiet.
  destruct o as [q|i e|i|i|dt|a outs| |se outs]; try (now rewrite Quiet).
  - destruct rs as [k cs| | | | | ]; try reflexivity. destruct (q_expires q) as [d|] eqn:Q; [|reflexivity].
    rewrite (proj1 (subscribe_entry c st q k cs ltac:(unfold resp_of; now rewrite S))), Q.
    destruct (granted_cs_bounds c (Some d)) as [H1 H2]. specialize (H2 d eq_refl). lia.
  - destruct i as [k|]; [|now rewrite Quiet]. destruct e as [d|]; [|now rewrite Quiet].
    destruct rs as [ |cs| | | | ]; try reflexivity.
    rewrite (proj1 (renew_entry c st (Id k) (Some d) cs ltac:(unfold resp_of; now rewrite S))).
    destruct (granted_cs_bounds c (Some d)) as [H1 H2]. specialize (H2 d eq_refl). lia.
  - assert (ms = msgs_of (step c st (Report a outs))) as -> by (unfold msgs_of; now rewrite S).
    rewrite (proj2 (report_spec c st a outs)). unfold expected_notifies.
    rewrite (filter_ext (fun s => live_b c s (st_now st) && matches (s_filter s) a)
                        (fun s => matches (s_filter s) a && deliverable c s (st_now st))).
    + apply list_eqb_refl. apply msg_eqb_refl.
    + intros x. rewrite live_b_deliverable. apply andb_comm.
  - inversion S; subst. destruct se; [|reflexivity].
    rewrite end_msgs_eq. unfold expected_ends.
    rewrite (filter_ext (fun s => live_b c s (st_now st))
                        (fun s => deliverable c s (st_now st))).
    + apply list_eqb_refl. apply msg_eqb_refl.
    + intros x. apply live_b_deliverable.
Qed.
