(* C08 -- proofs about the fine-grained fan-out (Eventing/FanOut.v). *)
From Coq Require Import ZArith List Bool String Lia.
From SDC Require Import Common.ListFacts Eventing.Model Eventing.Proofs Eventing.FanOut.
Import ListNotations.
Open Scope Z_scope.
Open Scope list_scope.

Lemma run_watch_run : forall c n ops st,
  fst (fst (run_watch c n st ops)) = fst (run c st ops) /\
  snd (fst (run_watch c n st ops)) = snd (run c st ops).
Proof.
  intros c n ops. induction ops as [|o r IH]; intros st; simpl; [auto|].
  destruct (step c st o) as [st1 ob]. specialize (IH st1).
  destruct (run_watch c n st1 r) as [[st2 obs] g]. destruct (run c st1 r) as [st2' obs']. simpl in *.
  destruct IH as [-> ->]. auto.
Qed.

Lemma finish_send_next : forall c st k n o, st_next (finish_send c st k n o) = st_next st.
Proof. intros. unfold finish_send. destruct (exchange c (st_pool st) n o). reflexivity. Qed.

Lemma finish_send_now : forall c st k n o, st_now (finish_send c st k n o) = st_now st.
Proof. intros. unfold finish_send. destruct (exchange c (st_pool st) n o). reflexivity. Qed.

Lemma finish_send_table : forall c st k n o,
  Forall2 same_but_errors (st_table st) (st_table (finish_send c st k n o)).
Proof.
  intros c st k n o. pose proof (Forall2_same _ same_but_errors_refl) as Same.
  unfold finish_send. destruct (exchange c (st_pool st) n o) as [p3 ok]. simpl.
  destruct (tfind k (st_table st)) as [s|] eqn:T; [|apply Same].
  destruct (tfind_Some _ _ _ T) as [_ <-].
  destruct (tset_split _ (set_errors s (if ok then 0 else s_errors s + 1)) _ T) as [l1 [l2 [-> ->]]].
  apply Forall2_app; [apply Same|constructor; [apply set_errors_same|apply Same]].
Qed.

(* the pool is no part of the invariant *)
Lemma Inv_with_pool : forall c st p, Inv c st -> Inv c (with_pool st p).
Proof. intros c st p [ND F]. split; [exact ND|]. intros s Hs. destruct (F s Hs). now split. Qed.

Lemma gone_with_pool : forall c j st p, gone c j st -> gone c j (with_pool st p).
Proof. intros c j st p [I L NK]. split; [now apply Inv_with_pool|exact L|exact NK]. Qed.

Lemma Inv_finish_send : forall c st k n o, Inv c st -> Inv c (finish_send c st k n o).
Proof.
  intros c st k n o [ND F]. pose proof (finish_send_table c st k n o) as T. split.
  - now rewrite (Forall2_map_eq _ s_id s_id (fun x y H => same_static_id x y (sbe_static x y H)) _ _ T).
  - intros y Hy. destruct (Forall2_In_r _ _ _ _ T Hy) as [x [Hx S]]. destruct (F _ Hx) as [Hi Hc Hs He].
    split; rewrite ?finish_send_next, ?finish_send_now.
    + now rewrite (same_static_id _ _ (sbe_static _ _ S)).
    + now rewrite (sbe_closed _ _ S).
    + now rewrite (sbe_started _ _ S).
    + now rewrite (sbe_expire _ _ S).
Qed.

Lemma gone_finish_send : forall c j st k n o, gone c j st -> gone c j (finish_send c st k n o).
Proof.
  intros c j st k n o [I L NK]. split; [now apply Inv_finish_send|now rewrite finish_send_next|].
  intros [k' [y [E [Hy [Hid U]]]]]. apply NK.
  destruct (Forall2_In_r _ _ _ _ (finish_send_table c st k n o) Hy) as [x [Hx S]].
  exists k', x. rewrite <- (same_static_id _ _ (sbe_static _ _ S)), <- (sbe_unsub _ _ S). auto.
Qed.

(* the state after receiver k has been served, what was handed to it, and what is left of [inter] and of the
   operations waiting for the lock *)
Definition serve (c : cfg) (a : string) (outs : list outcome) (k : Z) (inter : list (list op))
                 (st : state) (d : list op) : state * option hand * list (list op) * list op :=
  match tfind k (st_table st) with
  | Some s =>
      if deliverable c s (st_now st) then
        let n := s_notify s in
        let '(st2, obs, orphan) := run_watch c n (with_pool st (fst (pool_get (st_pool st) n k)))
                                             (filter (inflight c) (hd [] inter)) in
        (if orphan then st2 else finish_send c st2 k n (outcome_at outs n), Some (Notify k a n, obs),
         tl inter, d ++ filter (fun o => negb (inflight c o)) (hd [] inter))
      else (st, None, inter, d)
  | None => (st, None, inter, d)
  end.

Lemma fan_cons : forall c a outs k r inter st d,
  fan c a outs (k :: r) inter st d =
  let '(st', h, inter', d') := serve c a outs k inter st d in
  let '(st4, vs, d4) := fan c a outs r inter' st' d' in (st4, mkVisit k st h :: vs, d4).
Proof.
  intros. unfold serve. simpl. destruct (tfind k (st_table st)) as [s|]; [|reflexivity].
  destruct (deliverable c s (st_now st)); [|reflexivity].
  destruct (run_watch c (s_notify s) _ _) as [[st2 obs] orphan]. reflexivity.
Qed.

(* whatever is true of the state after a hand-off: it is reached by operations and the end of an exchange *)
Lemma serve_reaches : forall c a outs k inter st d st' h inter' d',
  serve c a outs k inter st d = (st', h, inter', d') ->
  st' = st /\ h = None /\ inter' = inter /\
    (forall s, tfind k (st_table st) = Some s -> deliverable c s (st_now st) = false) \/
  exists s obs st2, tfind k (st_table st) = Some s /\ deliverable c s (st_now st) = true /\
    h = Some (Notify k a (s_notify s), obs) /\ inter' = tl inter /\
    st2 = fst (run c (with_pool st (fst (pool_get (st_pool st) (s_notify s) k))) (filter (inflight c) (hd [] inter))) /\
    (st' = st2 \/ st' = finish_send c st2 k (s_notify s) (outcome_at outs (s_notify s))).
Proof.
  unfold serve. intros c a outs k inter st d st' h inter' d' S.
  destruct (tfind k (st_table st)) as [s|] eqn:T; [|injection S as <- <- <- _; left; repeat split; discriminate].
  destruct (deliverable c s (st_now st)) eqn:D; [|injection S as <- <- <- _; left; repeat split; congruence].
  pose proof (run_watch_run c (s_notify s) (filter (inflight c) (hd [] inter))
                (with_pool st (fst (pool_get (st_pool st) (s_notify s) k)))) as [E _].
  destruct (run_watch c (s_notify s) _ _) as [[st2 obs] orphan]. simpl in E. injection S as <- <- <- _.
  right. exists s, obs, st2. repeat split; auto. destruct orphan; auto.
Qed.

Lemma serve_preserves : forall c (P : state -> Prop),
  (forall st p, P st -> P (with_pool st p)) -> (forall ops st, P st -> P (fst (run c st ops))) ->
  (forall st k n o, P st -> P (finish_send c st k n o)) ->
  forall a outs k inter st d st' h inter' d',
  serve c a outs k inter st d = (st', h, inter', d') -> P st -> P st'.
Proof.
  intros c P Ppool Prun Pfin a outs k inter st d st' h inter' d' S H.
  destruct (serve_reaches _ _ _ _ _ _ _ _ _ _ _ S) as [[-> _]|[s [obs [st2 [_ [_ [_ [_ [E2 E']]]]]]]]]; [exact H|].
  assert (P st2) as H2 by (rewrite E2; apply Prun, Ppool, H).
  destruct E' as [->| ->]; [exact H2|now apply Pfin].
Qed.

Lemma fan_preserves : forall c a outs (P : state -> Prop),
  (forall k inter st d st' h inter' d', serve c a outs k inter st d = (st', h, inter', d') -> P st -> P st') ->
  forall recv inter st d, P st ->
  P (fst (fst (fan c a outs recv inter st d))) /\
  Forall (fun v => P (v_st v)) (snd (fst (fan c a outs recv inter st d))).
Proof.
  intros c a outs P HP recv. induction recv as [|k r IH]; intros inter st d H; [simpl; auto|]. rewrite fan_cons.
  destruct (serve c a outs k inter st d) as [[[st' h] inter'] d'] eqn:S.
  specialize (IH inter' st' d' (HP _ _ _ _ _ _ _ _ S H)).
  destruct (fan c a outs r inter' st' d') as [[st4 vs] d4]. simpl in *.
  split; [apply IH|constructor; [exact H|apply IH]].
Qed.

Lemma fan_Inv : forall c a outs recv inter st d, Inv c st ->
  Inv c (fst (fst (fan c a outs recv inter st d))) /\
  Forall (fun v => Inv c (v_st v)) (snd (fst (fan c a outs recv inter st d))).
Proof.
  intros c a outs. apply fan_preserves.
  exact (serve_preserves c (Inv c) (Inv_with_pool c) (Inv_run c) (Inv_finish_send c) a outs).
Qed.

(* an id that is not known when the fan-out starts (or stops being known during it) is not known at
   any later send time of this fan-out, nor afterwards *)
Lemma fan_gone : forall c j a outs recv inter st d, gone c j st ->
  gone c j (fst (fst (fan c a outs recv inter st d))) /\
  Forall (fun v => gone c j (v_st v)) (snd (fst (fan c a outs recv inter st d))).
Proof.
  intros c j a outs. apply fan_preserves.
  exact (serve_preserves c (gone c j) (gone_with_pool c j) (gone_run c j) (gone_finish_send c j) a outs).
Qed.

Lemma fan_keys : forall c a outs recv inter st d,
  map v_k (snd (fst (fan c a outs recv inter st d))) = recv.
Proof.
  intros c a outs recv. induction recv as [|k r IH]; intros inter st d; [reflexivity|]. rewrite fan_cons.
  destruct (serve c a outs k inter st d) as [[[st' h] inter'] d']. specialize (IH inter' st' d').
  destruct (fan c a outs r inter' st' d') as [[st4 vs] d4]. simpl in *. now rewrite IH.
Qed.

(* every visit records one turn of the loop *)
Lemma fan_served : forall c a outs recv inter st d,
  Forall (fun v => exists inter0 d0 st' inter' d',
            serve c a outs (v_k v) inter0 (v_st v) d0 = (st', v_hand v, inter', d'))
         (snd (fst (fan c a outs recv inter st d))).
Proof.
  intros c a outs recv. induction recv as [|k r IH]; intros inter st d; [constructor|]. rewrite fan_cons.
  destruct (serve c a outs k inter st d) as [[[st' h] inter'] d'] eqn:S. specialize (IH inter' st' d').
  destruct (fan c a outs r inter' st' d') as [[st4 vs] d4]. simpl in *. constructor; [simpl; eauto 6|exact IH].
Qed.

Definition visit_ok (c : cfg) (a : string) (v : visit) : Prop :=
  match v_hand v with
  | Some (m, _) => exists s, In s (st_table (v_st v)) /\ s_id s = v_k v /\ live c s (st_now (v_st v)) /\
                             m = Notify (v_k v) a (s_notify s)
  | None => forall s, In s (st_table (v_st v)) -> s_id s = v_k v -> ~ live c s (st_now (v_st v))
  end.

Lemma serve_visit_ok : forall c a outs k inter st d st' h inter' d',
  NoDup (map s_id (st_table st)) -> serve c a outs k inter st d = (st', h, inter', d') ->
  visit_ok c a (mkVisit k st h).
Proof.
  intros c a outs k inter st d st' h inter' d' ND S. unfold visit_ok. simpl.
  destruct (serve_reaches _ _ _ _ _ _ _ _ _ _ _ S) as [[_ [-> [_ N]]]|[s [obs [st2 [T [D [-> _]]]]]]].
  - intros s Hs Hk L. apply deliverable_live in L. rewrite <- Hk in N. rewrite (N s (tfind_NoDup _ _ ND Hs)) in L.
    discriminate.
  - destruct (tfind_Some _ _ _ T) as [Hs Hk]. exists s. rewrite <- deliverable_live. auto.
Qed.

Lemma fan_visits_In : forall c a outs recv inter st d v, Inv c st ->
  In v (snd (fst (fan c a outs recv inter st d))) -> Inv c (v_st v) /\ visit_ok c a v.
Proof.
  intros c a outs recv inter st d v I Hv.
  pose proof (proj2 (fan_Inv c a outs recv inter st d I)) as FI. pose proof (fan_served c a outs recv inter st d) as FS.
  rewrite Forall_forall in FI, FS. split; [now apply FI|].
  destruct (FS _ Hv) as [inter0 [d0 [st' [inter' [d' S]]]]]. destruct v as [k stv h].
  exact (serve_visit_ok _ _ _ _ _ _ _ _ _ _ _ (inv_nodup _ _ (FI _ Hv)) S).
Qed.

Lemma receivers_spec : forall st a order k, NoDup (map s_id (st_table st)) ->
  (In k (receivers st a order) <->
   In k order /\ exists s, In s (st_table st) /\ s_id s = k /\ matches (s_filter s) a = true).
Proof.
  intros st a order k ND. unfold receivers. rewrite filter_In. split.
  - intros [H B]. split; [exact H|]. destruct (tfind k (st_table st)) as [s|] eqn:T; [|discriminate].
    destruct (tfind_Some _ _ _ T) as [Hs Hk]. exists s. auto.
  - intros [H [s [Hs [Hk M]]]]. split; [exact H|]. subst k. now rewrite (tfind_NoDup _ _ ND Hs).
Qed.

(* a handed visit names a live, hence known, subscription: an id that is gone is handed nothing *)
Lemma gone_not_handed : forall c j a v, gone c j (v_st v) -> visit_ok c a v -> v_k v = j -> v_hand v = None.
Proof.
  intros c j a v G V Ek. unfold visit_ok in V. destruct (v_hand v) as [[m obs]|]; [|reflexivity].
  destruct V as [s [Hs [Hk [L _]]]]. exfalso. apply (gone_unknown _ _ _ G).
  exists j, s. pose proof (live_unsub _ _ _ L). repeat split; congruence.
Qed.

Lemma fan_gone_blocks : forall c j a outs recv inter st d, gone c j st ->
  Forall (fun v => v_k v = j -> v_hand v = None) (snd (fst (fan c a outs recv inter st d))).
Proof.
  intros c j a outs recv inter st d G. pose proof (proj2 (fan_gone c j a outs recv inter st d G)) as FG.
  rewrite Forall_forall in *. intros v Hv.
  exact (gone_not_handed c j a v (FG _ Hv) (proj2 (fan_visits_In _ _ _ _ _ _ _ _ (gone_inv _ _ _ G) Hv))).
Qed.

Lemma unsub_gone : forall c j st, Inv c st -> j < st_next st -> gone c j (fst (step c st (Unsubscribe (Id j)))).
Proof.
  intros c j st I L. split; [now apply Inv_step|pose proof (step_mono c st (Unsubscribe (Id j))); lia|].
  destruct (lookup st (Id j)) as [s|] eqn:Lk.
  - apply unsubscribed_unknown; [exact (inv_nodup _ _ I)|]. unfold resp_of. simpl. simpl in Lk. now rewrite Lk.
  - simpl. simpl in Lk. rewrite Lk. simpl. intros K.
    destruct (lookup_known _ _ (inv_nodup _ _ I) K) as [s Ls]. simpl in Ls. congruence.
Qed.

Lemma run_unsub_gone : forall c j ops st, Inv c st -> j < st_next st ->
  In (Unsubscribe (Id j)) ops -> gone c j (fst (run c st ops)).
Proof.
  intros c j ops. induction ops as [|o r IH]; intros st I L H; [contradiction|].
  replace (fst (run c st (o :: r))) with (fst (run c (fst (step c st o)) r)) by now rewrite !run_fst.
  destruct H as [->|H].
  - apply gone_run. now apply unsub_gone.
  - apply IH; [now apply Inv_step|pose proof (step_mono c st o); lia|exact H].
Qed.

(* an id that has been issued stays issued *)
Lemma serve_issued : forall c j a outs k inter st d st' h inter' d',
  serve c a outs k inter st d = (st', h, inter', d') ->
  Inv c st /\ j < st_next st -> Inv c st' /\ j < st_next st'.
Proof.
  intros c j. apply (serve_preserves c (fun x => Inv c x /\ j < st_next x)).
  - intros st p [I L]. split; [now apply Inv_with_pool|exact L].
  - apply (run_preserves c (fun x => Inv c x /\ j < st_next x)). intros st o [I L].
    split; [now apply Inv_step|pose proof (step_mono c st o); lia].
  - intros st k n o [I L]. split; [now apply Inv_finish_send|now rewrite finish_send_next].
Qed.

Lemma fan_unsub_blocks : forall c j a outs recv inter st d pre v post,
  Inv c st -> c_sync c = true -> j < st_next st ->
  snd (fst (fan c a outs recv inter st d)) = pre ++ v :: post ->
  (exists h, v_hand v = Some h) ->
  In (Unsubscribe (Id j)) (nth (List.length (hands_of pre)) inter []) ->
  Forall (fun v' => v_k v' = j -> v_hand v' = None) post.
Proof.
  intros c j a outs recv. induction recv as [|k r IH]; intros inter st d pre v post I S L E Hv Hin.
  { destruct pre; discriminate. }
  rewrite fan_cons in E. destruct (serve c a outs k inter st d) as [[[st' h] inter'] d'] eqn:Sv.
  pose proof (fan_gone_blocks c j a outs r inter' st' d') as Blocks.
  destruct (fan c a outs r inter' st' d') as [[st4 vs] d4] eqn:FA. simpl in E, Blocks.
  destruct (serve_reaches _ _ _ _ _ _ _ _ _ _ _ Sv) as [[-> [-> [-> _]]]|[s [obs [st2 [_ [_ [-> [-> [E2 E']]]]]]]]].
  - (* k is handed nothing: v comes later *)
    destruct pre as [|p0 pre']; injection E as <- E; [destruct Hv; discriminate|].
    apply (IH inter st d' pre' v post); try assumption. now rewrite FA.
  - destruct (serve_issued c j _ _ _ _ _ _ _ _ _ _ Sv (conj I L)) as [I' L'].
    destruct pre as [|p0 pre']; injection E as <- E.
    + (* v is this hand-off: the Unsubscribe is among the operations run during it *)
      subst post. apply Blocks. simpl in Hin.
      assert (gone c j st2) as G2.
      { rewrite E2. apply run_unsub_gone; [now apply Inv_with_pool|exact L|].
        rewrite filter_all_true; [destruct inter; exact Hin|]. intros x _. unfold inflight. now rewrite S. }
      destruct E' as [->| ->]; [exact G2|now apply gone_finish_send].
    + apply (IH (tl inter) st' d' pre' v post); try assumption; [now rewrite FA|].
      simpl in Hin. destruct inter as [|i0 inter]; [contradiction|exact Hin].
Qed.

Lemma Inv_fan_step : forall c st a outs order inter, Inv c st -> Inv c (fst (fan_step c st a outs order inter)).
Proof.
  intros c st a outs order inter I. unfold fan_step.
  pose proof (proj1 (fan_Inv c a outs (receivers st a order) inter st [] I)) as I1.
  destruct (fan c a outs (receivers st a order) inter st []) as [[st1 vs] d]. simpl in I1.
  pose proof (Inv_run c d st1 I1) as I2. destruct (run c st1 d) as [st2 dobs]. exact I2.
Qed.

Lemma Inv_xfinal : forall c xs, Inv c (xfinal c xs).
Proof.
  intros c xs. unfold xfinal, xfinal_from. generalize (Inv_init c). generalize init.
  induction xs as [|x r IH]; intros st I; simpl; [exact I|]. apply IH.
  destruct x as [o|a outs order inter]; simpl; [now apply Inv_step|now apply Inv_fan_step].
Qed.

Lemma check_visit_ok : forall c a v, NoDup (map s_id (st_table (v_st v))) -> visit_ok c a v -> check_visit c v = true.
Proof.
  intros c a v ND V. unfold check_visit, visit_ok in *.
  destruct (v_hand v) as [[m obs]|]; simpl.
  - destruct V as [s [Hs [Hk [L _]]]]. rewrite <- Hk, (tfind_NoDup _ _ ND Hs).
    apply live_b_live in L. now rewrite L.
  - destruct (tfind (v_k v) (st_table (v_st v))) as [s|] eqn:T; [|reflexivity].
    destruct (tfind_Some _ _ _ T) as [Hs Hk].
    destruct (live_b c s (st_now (v_st v))) eqn:B; [|reflexivity].
    exfalso. apply (V s Hs Hk). now apply live_b_live.
Qed.

Lemma xcheck_holds : forall c xs st, Inv c st -> xcheck c st xs = true.
Proof.
  intros c xs. induction xs as [|x r IH]; intros st I; [reflexivity|].
  destruct x as [o|a outs order inter].
  - change (check_C08 c st [o] && xcheck c (fst (step c st o)) r = true).
    rewrite check_C08_holds. simpl. apply IH. now apply Inv_step.
  - change (forallb (check_visit c) (fan_visits c st a outs order inter) &&
            xcheck c (fst (fan_step c st a outs order inter)) r = true).
    rewrite IH by (now apply Inv_fan_step). rewrite andb_true_r.
    apply forallb_forall. intros v Hv. destruct (fan_visits_In _ _ _ _ _ _ _ _ I Hv) as [[ND _] V].
    exact (check_visit_ok c a v ND V).
Qed.

Lemma pfind_pset_same : forall n e p, pfind n (pset n e p) = Some e.
Proof.
  intros n e p. induction p as [|[m e0] r IH]; simpl; [now rewrite Z.eqb_refl|].
  destruct (m =? n) eqn:E; simpl; rewrite E; [reflexivity|exact IH].
Qed.

Lemma post_split : forall c p n u o, post c p n u o = exchange c (fst (pool_get p n u)) n o.
Proof.
  intros c p n u o. unfold post, exchange, pool_get.
  destruct (pfind n p) as [[us d]|]; simpl; rewrite pfind_pset_same; reflexivity.
Qed.

Lemma tset_mid : forall s' s done r, NoDup (map s_id (done ++ s :: r)) -> s_id s' = s_id s ->
  tset s' (done ++ s :: r) = done ++ s' :: r.
Proof.
  intros s' s done r. induction done as [|x done IH]; simpl; intros ND E.
  - rewrite E, Z.eqb_refl. reflexivity.
  - inversion ND as [|? ? NI ND']; subst.
    assert (s_id x <> s_id s) as N.
    { intros C. apply NI. rewrite C. rewrite map_app. apply in_or_app. right. now left. }
    destruct (s_id x =? s_id s') eqn:B; [lia|]. now rewrite IH.
Qed.

Lemma fan_plain : forall c a outs now next rest done p t' p' ms,
  NoDup (map s_id (done ++ rest)) -> send_all c now a outs rest p = (t', p', ms) ->
  exists vs, fan c a outs (map s_id (filter (fun s => matches (s_filter s) a) rest)) []
                 (mkState now next (done ++ rest) p) [] = (mkState now next (done ++ t') p', vs, []) /\
             map fst (hands_of vs) = ms.
Proof.
  intros c a outs now next rest. induction rest as [|s r IH]; intros done p t' p' ms ND SA; simpl in *.
  { injection SA as <- <- <-. rewrite app_nil_r. eauto. }
  pose proof (tfind_NoDup _ s ND (in_elt s done r)) as T.
  (* the tail of the table is served from (done ++ [s'], p1), where s' and p1 are what this turn leaves *)
  assert (forall s' p1 r' p2 ms', s_id s' = s_id s -> send_all c now a outs r p1 = (r', p2, ms') ->
            exists vs, fan c a outs (map s_id (filter (fun s0 => matches (s_filter s0) a) r)) []
                           (mkState now next (done ++ s' :: r) p1) [] = (mkState now next (done ++ s' :: r') p2, vs, []) /\
                       map fst (hands_of vs) = ms') as Tail.
  { intros s' p1 r' p2 ms' E SA'. specialize (IH (done ++ [s']) p1 r' p2 ms'). rewrite <- !app_assoc in IH.
    apply IH; [|exact SA']. rewrite map_app in *. simpl in *. now rewrite E. }
  destruct (matches (s_filter s) a); simpl in *.
  - rewrite T. simpl. destruct (deliverable c s now); simpl in *.
    + rewrite post_split in SA. unfold finish_send. simpl.
      destruct (exchange c (fst (pool_get p (s_notify s) (s_id s))) (s_notify s) (outcome_at outs (s_notify s)))
        as [p1 ok]. simpl. rewrite T, (tset_mid _ s done r ND) by reflexivity.
      destruct (send_all c now a outs r p1) as [[r' p2] ms'] eqn:SA'. injection SA as <- <- <-.
      destruct (Tail (set_errors s (if ok then 0 else s_errors s + 1)) _ _ _ _ eq_refl SA') as [vs [-> <-]].
      destruct ok; eauto.
    + destruct (send_all c now a outs r p) as [[r' p2] ms'] eqn:SA'. injection SA as <- <- <-.
      destruct (Tail s _ _ _ _ eq_refl SA') as [vs [-> <-]]. eauto.
  - destruct (send_all c now a outs r p) as [[r' p2] ms'] eqn:SA'. injection SA as <- <- <-.
    exact (Tail s _ _ _ _ eq_refl SA').
Qed.

Lemma receivers_table_order : forall st a, NoDup (map s_id (st_table st)) ->
  receivers st a (map s_id (st_table st)) =
  map s_id (filter (fun s => matches (s_filter s) a) (st_table st)).
Proof.
  intros st a ND. unfold receivers.
  assert (forall l, incl l (st_table st) ->
            filter (fun k => match tfind k (st_table st) with Some s => matches (s_filter s) a | None => false end)
                   (map s_id l) = map s_id (filter (fun s => matches (s_filter s) a) l)) as G.
  { induction l as [|x l IH]; intros I; simpl; [reflexivity|].
    rewrite (tfind_NoDup _ _ ND (I x (or_introl eq_refl))).
    rewrite IH by (intros y Hy; apply I; now right).
    destruct (matches (s_filter x) a); reflexivity. }
  apply G. apply incl_refl.
Qed.

(* with nothing interleaved and the receivers in table order, the fine-grained report IS the atomic one *)
Lemma fan_step_plain : forall c st a outs, NoDup (map s_id (st_table st)) ->
  fst (fan_step c st a outs (map s_id (st_table st)) []) = fst (step c st (Report a outs)) /\
  map fst (fst (snd (fan_step c st a outs (map s_id (st_table st)) []))) = msgs_of (step c st (Report a outs)) /\
  snd (snd (fan_step c st a outs (map s_id (st_table st)) [])) = [].
Proof.
  intros c st a outs ND. unfold fan_step, msgs_of. rewrite (receivers_table_order st a ND).
  destruct st as [now next tbl p]. simpl in *.
  destruct (send_all c now a outs tbl p) as [[t' p'] ms] eqn:SA.
  destruct (fan_plain c a outs now next tbl [] p _ _ _ ND SA) as [vs [F <-]]. simpl in F. rewrite F. simpl. auto.
Qed.
