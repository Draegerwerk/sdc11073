(* Tools shared by the proofs about the MDIB, provider and consumer side: handle lists, association lists, [upd],
   folds that overwrite a table key by key or remove keys from it (the general facts about folds are in
   Common/ListFacts.v), the pointwise effect of the commit's primitives, of rm_one and of handle_state_updates, what an
   accepted call of a descriptor transaction has checked, and the rules for [body] and [transaction]. *)
From Coq Require Import List ZArith Bool Lia.
From SDC Require Import Mdib.Model.
From SDC Require Export Common.ListFacts.
Import ListNotations.
Open Scope Z_scope.

Lemma memz_In h l : memz h l = true <-> In h l.
Proof. apply existsb_Zeqb_In. Qed.
Lemma memz_false h l : memz h l = false <-> ~ In h l.
Proof. rewrite <- memz_In. destruct (memz h l); split; congruence. Qed.
Lemma memz_cons h x l : memz h (x :: l) = Z.eqb h x || memz h l.
Proof. reflexivity. Qed.
Lemma memz_app h l1 l2 : memz h (l1 ++ l2) = memz h l1 || memz h l2.
Proof. unfold memz. apply existsb_app. Qed.
Lemma memz_ext y l1 l2 : (forall x, In x l1 <-> In x l2) -> memz y l1 = memz y l2.
Proof. intros E. apply eq_true_iff_eq. now rewrite !memz_In. Qed.

Lemma add_dom_In h x l : In x (add_dom h l) <-> x = h \/ In x l.
Proof.
  unfold add_dom. destruct (memz h l) eqn:E.
  - apply memz_In in E. split; [now right|]. intros [->|Hi]; assumption.
  - rewrite in_app_single. tauto.
Qed.
Lemma add_dom_incl h l : incl l (add_dom h l).
Proof. intros x Hx. apply add_dom_In. now right. Qed.
Lemma add_dom_known h l : In h l -> add_dom h l = l.
Proof. intros Hi. unfold add_dom. apply memz_In in Hi. now rewrite Hi. Qed.
Lemma add_dom_len h l : (length l <= length (add_dom h l))%nat.
Proof. unfold add_dom. destruct (memz h l); [lia|]. rewrite app_length. cbn. lia. Qed.
Lemma add_dom_nodup h l : NoDup l -> NoDup (add_dom h l).
Proof. unfold add_dom. destruct (memz h l) eqn:E; [tauto|]. intros Hn. apply NoDup_snoc; [exact Hn|now apply memz_false]. Qed.

Lemma alist_get_app {A} (l1 l2 : list (H * A)) k :
  alist_get (l1 ++ l2) k = match alist_get l1 k with Some x => Some x | None => alist_get l2 k end.
Proof.
  induction l1 as [|[h x] r IH]; cbn [app alist_get]; [reflexivity|].
  destruct (Z.eqb k h); [reflexivity|apply IH].
Qed.

Lemma alist_get_some_in {A} (l : list (H * A)) h v : alist_get l h = Some v -> In (h, v) l.
Proof.
  induction l as [|[k w] r IH]; cbn [alist_get]; [discriminate|].
  destruct (Z.eqb_spec h k) as [->|_]; [intros [= ->]; now left|intros E; right; now apply IH].
Qed.

Lemma alist_get_key {A} (l : list (H * A)) y v : alist_get l y = Some v -> In y (map fst l).
Proof. intros E. apply alist_get_some_in in E. now apply (in_map fst) in E. Qed.

Lemma alist_get_none_notin {A} (l : list (H * A)) h : alist_get l h = None <-> ~ In h (map fst l).
Proof.
  induction l as [|[k v] r IH]; cbn [alist_get map fst In]; [tauto|].
  destruct (Z.eqb_spec h k) as [->|Hne].
  - split; [discriminate|]. intros Hn. exfalso. apply Hn. now left.
  - rewrite IH. intuition congruence.
Qed.

Lemma alist_has_in {A} (l : list (H * A)) h : alist_has l h = true <-> In h (map fst l).
Proof.
  unfold alist_has. destruct (alist_get l h) eqn:G.
  - split; [intros _|reflexivity]. exact (alist_get_key _ _ _ G).
  - apply alist_get_none_notin in G. split; [discriminate|contradiction].
Qed.

Lemma alist_get_in {A} (l : list (H * A)) h v :
  NoDup (map fst l) -> In (h, v) l -> alist_get l h = Some v.
Proof.
  induction l as [|[k w] r IH]; intros Hnd Hi; [contradiction|].
  inversion Hnd as [|? ? Hk Hr]; subst. cbn [alist_get].
  destruct Hi as [[= -> ->]|Hi]; [now rewrite Z.eqb_refl|].
  destruct (Z.eqb_spec h k) as [->|_]; [|now apply IH].
  exfalso. apply Hk. now apply (in_map fst) in Hi.
Qed.

Lemma alist_get_insert {A} (l1 l2 : list (H * A)) k v y : ~ In k (map fst l1) ->
  alist_get (l1 ++ (k, v) :: l2) y = if Z.eqb y k then Some v else alist_get (l1 ++ l2) y.
Proof.
  intros Hk. rewrite !alist_get_app. cbn [alist_get]. destruct (Z.eqb_spec y k) as [->|_]; [|reflexivity].
  apply alist_get_none_notin in Hk. now rewrite Hk.
Qed.

Lemma alist_get_snoc {A} (Q : list (H * A)) k v y : ~ In k (map fst Q) ->
  alist_get (Q ++ [(k, v)]) y = if Z.eqb y k then Some v else alist_get Q y.
Proof. intros Hk. now rewrite alist_get_insert, app_nil_r. Qed.

Lemma filter_get {A} (f : H * A -> bool) l y : NoDup (map fst l) ->
  alist_get (filter f l) y = match alist_get l y with Some v => if f (y, v) then Some v else None | None => None end.
Proof.
  induction l as [|[a v] l IH]; intros Hn; cbn [filter alist_get]; [reflexivity|].
  inversion Hn as [|? ? Ha Hl]; subst. destruct (Z.eqb_spec y a) as [->|Hne].
  - destruct (f (a, v)); cbn [alist_get]; [now rewrite Z.eqb_refl|].
    apply alist_get_none_notin. intros Hx. apply Ha. exact (incl_map fst (incl_filter f l) _ Hx).
  - destruct (f (a, v)); cbn [alist_get]; [destruct (Z.eqb_spec y a); [contradiction|]|]; now apply IH.
Qed.

Lemma alist_get_set {A} (l : list (H * A)) h v h' :
  alist_get (alist_set l h v) h' = if Z.eqb h' h then Some v else alist_get l h'.
Proof.
  induction l as [|[k w] r IH]; cbn [alist_set alist_get].
  - destruct (Z.eqb h' h); reflexivity.
  - destruct (Z.eqb_spec h k) as [->|Hne]; cbn [alist_get].
    + destruct (Z.eqb h' k); reflexivity.
    + destruct (Z.eqb_spec h' k) as [->|Hne2].
      * destruct (Z.eqb_spec k h); [congruence|reflexivity].
      * apply IH.
Qed.

Lemma alist_set_key {A} (l : list (H * A)) h v k : In k (map fst (alist_set l h v)) <-> k = h \/ In k (map fst l).
Proof.
  induction l as [|[k0 w] r IH]; cbn [alist_set map fst In]; [intuition congruence|].
  destruct (Z.eqb_spec h k0) as [->|Hne]; cbn [map fst In]; [|rewrite IH]; intuition congruence.
Qed.

Lemma alist_set_nodup {A} (l : list (H * A)) h v : NoDup (map fst l) -> NoDup (map fst (alist_set l h v)).
Proof.
  intros Hnd. induction l as [|[k w] r IH]; cbn [alist_set map fst]; [constructor; [intros []|constructor]|].
  inversion Hnd as [|? ? Hk Hr]; subst. destruct (Z.eqb_spec h k) as [->|Hne]; cbn [map fst]; [assumption|].
  constructor; [|now apply IH]. rewrite alist_set_key. intros [->|Hi]; [congruence|contradiction].
Qed.

Lemma alist_set_in {A} (l : list (H * A)) h v h' x :
  NoDup (map fst l) -> In (h', x) (alist_set l h v) -> (h' = h /\ x = v) \/ (h' <> h /\ In (h', x) l).
Proof.
  intros Hn Hi. pose proof (alist_set_nodup l h v Hn) as N1.
  apply (alist_get_in _ _ _ N1) in Hi. rewrite alist_get_set in Hi.
  destruct (Z.eqb_spec h' h) as [->|Hne]; [left; split; [reflexivity|congruence]|].
  right. split; [assumption|]. now apply alist_get_some_in.
Qed.

Lemma alist_set_new_in {A} (l : list (H * A)) h v h' x :
  alist_has l h = false -> In (h', x) (alist_set l h v) <-> (h', x) = (h, v) \/ In (h', x) l.
Proof.
  unfold alist_has. induction l as [|[k w] r IH]; cbn [alist_get alist_set In]; intros Hn.
  - intuition congruence.
  - destruct (Z.eqb_spec h k) as [->|Hne]; [discriminate|]. cbn [In]. rewrite (IH Hn). tauto.
Qed.

Lemma alist_set_keeps {A} (l : list (H * A)) h v e : alist_has l h = false -> In e l -> In e (alist_set l h v).
Proof. destruct e as [k x]. intros Hn Hi. apply (alist_set_new_in _ _ _ _ _ Hn). now right. Qed.

Lemma alist_set_nonempty {A} (l : list (H * A)) h v : alist_set l h v <> [].
Proof. destruct l as [|[k w] r]; cbn; [discriminate|]. destruct (h =? k); discriminate. Qed.

Lemma upd_eq {A} (f : H -> option A) h v h' : upd f h v h' = if Z.eqb h h' then v else f h'.
Proof. reflexivity. Qed.
Lemma upd_some {A} (f : H -> option A) h v x y : upd f h (Some v) x = Some y -> f x = Some y \/ (h, v) = (x, y).
Proof. unfold upd. destruct (Z.eqb_spec h x) as [->|_]; [intros [= ->]; now right|now left]. Qed.
Lemma upd_dom {A} (f : H -> option A) h v l :
  (forall x, f x <> None -> In x l) -> forall x, upd f h v x <> None -> In x (add_dom h l).
Proof.
  intros Hf x Hx. apply add_dom_In. unfold upd in Hx. destruct (Z.eqb_spec h x) as [->|]; [now left|right; now apply Hf].
Qed.

(* a table that each step overwrites at its own key only: with distinct keys the fold overwrites pointwise *)
Section KeyedFold.
  Variables (St V W : Type) (get : St -> H -> W) (step : St -> H * V -> St) (val : W -> V -> W).
  Hypothesis step_get : forall c k v y, get (step c (k, v)) y = if Z.eqb k y then val (get c k) v else get c y.

  Lemma keyed_fold l : forall c, NoDup (map fst l) ->
    forall y, get (fold_left step l c) y = match alist_get l y with Some v => val (get c y) v | None => get c y end.
  Proof.
    induction l as [|[k v] r IH]; intros c Hnd y; cbn [fold_left alist_get]; [reflexivity|].
    inversion Hnd as [|? ? Hk Hr]; subst. rewrite (IH _ Hr), !step_get.
    destruct (Z.eqb_spec y k) as [->|Hne].
    - rewrite Z.eqb_refl. now rewrite (proj2 (alist_get_none_notin r k) Hk).
    - destruct (Z.eqb_spec k y); [congruence|reflexivity].
  Qed.
End KeyedFold.

(* a table in which each step rewrites the entry at its own key only *)
Lemma fold_own_key {St W} (get : St -> H -> W) (step : St -> H -> St) (val : H -> W -> W) :
  (forall s a y, get (step s a) y = if Z.eqb a y then val a (get s a) else get s y) ->
  forall l s, NoDup l -> forall y, get (fold_left step l s) y = if memz y l then val y (get s y) else get s y.
Proof.
  intros Hf. induction l as [|a l IH]; intros s Hn y; cbn [fold_left]; [reflexivity|].
  inversion Hn as [|? ? Ha Hl]; subst. rewrite (IH _ Hl), !Hf, memz_cons, (Z.eqb_sym y a).
  destruct (Z.eqb_spec a y) as [<-|Hne]; [|reflexivity]. apply memz_false in Ha. now rewrite Ha.
Qed.

(* a table from which each step removes its own key *)
Lemma fold_kill {St A} (g : St -> H -> option A) (f : St -> H -> St) :
  (forall s a x, g (f s a) x = if Z.eqb a x then None else g s x) ->
  forall l s x, g (fold_left f l s) x = if memz x l then None else g s x.
Proof.
  intros Hf. induction l as [|a l IH]; intros s x; cbn [fold_left]; [reflexivity|].
  rewrite IH, Hf, memz_cons, (Z.eqb_sym x a). destruct (memz x l), (Z.eqb a x); reflexivity.
Qed.

(* a table with saved versions from which each step removes its own key, remembering the version *)
Lemma fold_kill_saved {St A} (g : St -> H -> option A) (sv : St -> H -> option Z) (vof : A -> Z) (f : St -> H -> St) :
  (forall s a x, g (f s a) x = if Z.eqb a x then None else g s x) ->
  (forall s a x, sv (f s a) x = match g s a with Some o => if Z.eqb a x then Some (vof o) else sv s x | None => sv s x end) ->
  forall l s x, sv (fold_left f l s) x =
                match (if memz x l then g s x else None) with Some o => Some (vof o) | None => sv s x end.
Proof.
  intros Hg Hsv. induction l as [|a l IH]; intros s x; cbn [fold_left]; [reflexivity|].
  rewrite IH, Hg, Hsv, memz_cons, (Z.eqb_sym x a). destruct (Z.eqb_spec a x) as [->|_]; cbn [orb].
  - destruct (memz x l), (g s x); reflexivity.
  - destruct (memz x l); [destruct (g s x)|]; destruct (g s a); reflexivity.
Qed.

Lemma put_state_states m k s h : states (put_state m k s) h = if Z.eqb k h then Some s else states m h.
Proof. reflexivity. Qed.
Lemma put_state_sv m k s h :
  sv_s (put_state m k s) h =
  match states m k with
  | Some o => if Z.eqb k h then Some (s_ver o) else sv_s m h
  | None => sv_s m h
  end.
Proof. unfold put_state. cbn [sv_s]. destruct (states m k); reflexivity. Qed.

Lemma put_cstate_cstates m h c k : cstates (put_cstate m h c) k = if Z.eqb h k then c else cstates m k.
Proof. reflexivity. Qed.
Lemma put_cstate_sv m h c k :
  sv_c (put_cstate m h c) k =
  match cstates m h with
  | Some o => if Z.eqb h k then Some (c_ver o) else sv_c m k
  | None => sv_c m k
  end.
Proof. unfold put_cstate. cbn [sv_c]. destruct (cstates m h); reflexivity. Qed.

Lemma set_descr_descrs m h d x : descrs (set_descr m h d) x = if Z.eqb h x then d else descrs m x.
Proof. reflexivity. Qed.
Lemma set_descr_svd m h d x :
  sv_d (set_descr m h d) x =
  match d, descrs m h with
  | None, Some o => if Z.eqb h x then Some (d_ver o) else sv_d m x
  | _, _ => sv_d m x
  end.
Proof. unfold set_descr. cbn [sv_d]. destruct d; [reflexivity|]. destruct (descrs m h); reflexivity. Qed.

(* the loop over the context states inside rm_one, and what precedes it *)
Definition rm_cs (h : H) (m' : mdib) (ch : H) : mdib :=
  match cstates m' ch with
  | Some c => if Z.eqb (c_dh c) h then put_cstate m' ch None else m'
  | None => m'
  end.
Definition rm_head (m : mdib) (h : H) : mdib :=
  let m1 := set_descr m h None in
  match states m1 h with
  | Some s => mkMdib (descrs m1) (upd (states m1) h None) (cstates m1) (ver m1) (sv_d m1)
                     (upd (sv_s m1) h (Some (s_ver s))) (sv_c m1) (ddom m1) (cdom m1)
  | None => m1
  end.
Lemma rm_one_eq m h : rm_one m h = fold_left (rm_cs h) (cdom (rm_head m h)) (rm_head m h).
Proof. reflexivity. Qed.

Lemma rm_one_frame {C} (g : mdib -> C) m h : (forall m' k c, g (put_cstate m' k c) = g m') -> g (rm_one m h) = g (rm_head m h).
Proof.
  intros Hg. rewrite rm_one_eq. apply fold_frame. intros m' ch. unfold rm_cs.
  destruct (cstates m' ch) as [c|]; [destruct (Z.eqb (c_dh c) h)|]; auto.
Qed.

Lemma rm_one_descrs m h x : descrs (rm_one m h) x = if Z.eqb h x then None else descrs m x.
Proof. rewrite (rm_one_frame descrs) by reflexivity. unfold rm_head. destruct (states (set_descr m h None) h); reflexivity. Qed.
Lemma rm_one_states m h x : states (rm_one m h) x = if Z.eqb h x then None else states m x.
Proof.
  rewrite (rm_one_frame states) by reflexivity. unfold rm_head. cbn [states set_descr].
  destruct (states m h) eqn:E; cbn [states]; rewrite ?upd_eq; [reflexivity|].
  destruct (Z.eqb_spec h x) as [->|]; [assumption|reflexivity].
Qed.
Lemma rm_one_svd m h x :
  sv_d (rm_one m h) x = match descrs m h with Some o => if Z.eqb h x then Some (d_ver o) else sv_d m x | None => sv_d m x end.
Proof.
  rewrite (rm_one_frame sv_d) by reflexivity. unfold rm_head.
  destruct (states (set_descr m h None) h); cbn [sv_d]; rewrite set_descr_svd; reflexivity.
Qed.
Lemma rm_one_svs m h x :
  sv_s (rm_one m h) x = match states m h with Some s => if Z.eqb h x then Some (s_ver s) else sv_s m x | None => sv_s m x end.
Proof. rewrite (rm_one_frame sv_s) by reflexivity. unfold rm_head. cbn [states set_descr]. destruct (states m h); reflexivity. Qed.
Lemma rm_one_ddom m h : ddom (rm_one m h) = add_dom h (ddom m).
Proof. rewrite (rm_one_frame ddom) by reflexivity. unfold rm_head. destruct (states (set_descr m h None) h); reflexivity. Qed.

Lemma rm_cs_fold h l : forall m0 ch,
  (cstates (fold_left (rm_cs h) l m0) ch, sv_c (fold_left (rm_cs h) l m0) ch) =
  match cstates m0 ch with
  | Some c => if Z.eqb (c_dh c) h && memz ch l then (None, Some (c_ver c)) else (Some c, sv_c m0 ch)
  | None => (None, sv_c m0 ch)
  end.
Proof.
  induction l as [|k r IH]; intros m0 ch; cbn [fold_left].
  - destruct (cstates m0 ch); [now rewrite andb_false_r|reflexivity].
  - rewrite IH, memz_cons. unfold rm_cs.
    destruct (cstates m0 k) as [c0|] eqn:Ek; [destruct (Z.eqb_spec (c_dh c0) h) as [Eh|Eh]|].
    + rewrite put_cstate_cstates, put_cstate_sv, Ek, (Z.eqb_sym ch k). destruct (Z.eqb_spec k ch) as [<-|_]; [|reflexivity].
      now rewrite Ek, Eh, Z.eqb_refl.
    + destruct (Z.eqb_spec ch k) as [->|_]; [|reflexivity]. rewrite Ek. now destruct (Z.eqb_spec (c_dh c0) h).
    + destruct (Z.eqb_spec ch k) as [->|_]; [now rewrite Ek|reflexivity].
Qed.
Lemma rm_cs_cdom h l m0 : incl l (cdom m0) -> cdom (fold_left (rm_cs h) l m0) = cdom m0.
Proof.
  intros Hl. apply (fold_inv_in (fun m' => cdom m' = cdom m0)); [|reflexivity]. intros m' ch Hi E. unfold rm_cs.
  destruct (cstates m' ch) as [c|]; [destruct (Z.eqb (c_dh c) h)|]; try exact E.
  cbn [cdom put_cstate]. unfold add_dom. rewrite E. now rewrite (proj2 (memz_In ch (cdom m0)) (Hl ch Hi)).
Qed.

Lemma rm_one_cs m h ch :
  (cstates (rm_one m h) ch, sv_c (rm_one m h) ch) =
  match cstates m ch with
  | Some c => if Z.eqb (c_dh c) h && memz ch (cdom m) then (None, Some (c_ver c)) else (Some c, sv_c m ch)
  | None => (None, sv_c m ch)
  end.
Proof. rewrite rm_one_eq, rm_cs_fold. unfold rm_head. destruct (states (set_descr m h None) h); reflexivity. Qed.
Lemma rm_one_cdom m h : cdom (rm_one m h) = cdom m.
Proof.
  rewrite rm_one_eq, rm_cs_cdom by apply incl_refl. unfold rm_head. destruct (states (set_descr m h None) h); reflexivity.
Qed.

Lemma rm_list_descrs l m x : descrs (fold_left rm_one l m) x = if memz x l then None else descrs m x.
Proof. apply (fold_kill descrs), rm_one_descrs. Qed.
Lemma rm_list_states l m x : states (fold_left rm_one l m) x = if memz x l then None else states m x.
Proof. apply (fold_kill states), rm_one_states. Qed.
Lemma rm_list_svd l m x :
  sv_d (fold_left rm_one l m) x = match (if memz x l then descrs m x else None) with Some o => Some (d_ver o) | None => sv_d m x end.
Proof. apply (fold_kill_saved descrs sv_d d_ver); [apply rm_one_descrs|apply rm_one_svd]. Qed.
Lemma rm_list_svs l m x :
  sv_s (fold_left rm_one l m) x = match (if memz x l then states m x else None) with Some s => Some (s_ver s) | None => sv_s m x end.
Proof. apply (fold_kill_saved states sv_s s_ver); [apply rm_one_states|apply rm_one_svs]. Qed.
Lemma rm_list_ddom l : forall m, incl (ddom m) (ddom (fold_left rm_one l m)) /\
  (length (ddom m) <= length (ddom (fold_left rm_one l m)))%nat.
Proof.
  induction l as [|k r IH]; intros m; cbn [fold_left]; [split; [apply incl_refl|lia]|].
  destruct (IH (rm_one m k)) as [I1 I2]. rewrite rm_one_ddom in *. split.
  - intros x Hx. apply I1. apply add_dom_In. now right.
  - pose proof (add_dom_len k (ddom m)). lia.
Qed.
Lemma rm_list_cdom l m : cdom (fold_left rm_one l m) = cdom m.
Proof. apply (fold_frame cdom), rm_one_cdom. Qed.
Lemma rm_list_cs l : forall m ch,
  (cstates (fold_left rm_one l m) ch, sv_c (fold_left rm_one l m) ch) =
  match cstates m ch with
  | Some c => if memz (c_dh c) l && memz ch (cdom m) then (None, Some (c_ver c)) else (Some c, sv_c m ch)
  | None => (None, sv_c m ch)
  end.
Proof.
  induction l as [|k r IH]; intros m ch; cbn [fold_left]; [now destruct (cstates m ch)|].
  rewrite IH, rm_one_cdom. pose proof (rm_one_cs m k ch) as E.
  destruct (cstates m ch) as [c|]; [|now injection E as -> ->].
  rewrite memz_cons. destruct (Z.eqb (c_dh c) k), (memz ch (cdom m)); cbn [andb orb] in *; injection E as -> ->; try reflexivity;
    now destruct (memz (c_dh c) r).
Qed.

Lemma fold_put_state_pair l m : NoDup (map fst l) ->
  forall h, let m' := fold_left (fun m' e => put_state m' (fst e) (snd e)) l m in
            (states m' h, sv_s m' h) =
            match alist_get l h with
            | Some s => (Some s, match states m h with Some o => Some (s_ver o) | None => sv_s m h end)
            | None => (states m h, sv_s m h)
            end.
Proof.
  apply (keyed_fold mdib state _ (fun m h => (states m h, sv_s m h)) (fun m' e => put_state m' (fst e) (snd e))
                    (fun w s => (Some s, match fst w with Some o => Some (s_ver o) | None => snd w end))).
  intros c k v y. cbn [fst snd]. rewrite put_state_states, put_state_sv.
  destruct (Z.eqb_spec k y) as [->|_]; [|destruct (states c k)]; reflexivity.
Qed.

Lemma fold_put_cstate_pair l m : NoDup (map fst l) ->
  forall h, let m' := fold_left (fun m' e => put_cstate m' (fst e) (snd e)) l m in
            (cstates m' h, sv_c m' h) =
            match alist_get l h with
            | Some x => (x, match cstates m h with Some o => Some (c_ver o) | None => sv_c m h end)
            | None => (cstates m h, sv_c m h)
            end.
Proof.
  apply (keyed_fold mdib (option cstate) _ (fun m h => (cstates m h, sv_c m h)) (fun m' e => put_cstate m' (fst e) (snd e))
                    (fun w x => (x, match fst w with Some o => Some (c_ver o) | None => snd w end))).
  intros c k v y. cbn [fst snd]. rewrite put_cstate_cstates, put_cstate_sv.
  destruct (Z.eqb_spec k y) as [->|_]; [|destruct (cstates c k)]; reflexivity.
Qed.

Lemma fold_put_cstate_cdom l : forall m k,
  In k (cdom (fold_left (fun m' e => put_cstate m' (fst e) (snd e)) l m)) <-> In k (cdom m) \/ In k (map fst l).
Proof.
  induction l as [|e l IH]; intros m k; cbn [fold_left map]; [cbn; tauto|].
  rewrite IH. cbn [put_cstate cdom In]. rewrite add_dom_In. intuition.
Qed.
Lemma fold_put_cstate_nodup l m :
  NoDup (cdom m) -> NoDup (cdom (fold_left (fun m' e => put_cstate m' (fst e) (snd e)) l m)).
Proof. apply (fold_inv (fun m' => NoDup (cdom m'))). intros m' e. apply add_dom_nodup. Qed.

(* what handle_state_updates does to each component of the MDIB *)
Record overlaid (m : mdib) (t : tx) (m' : mdib) : Prop := {
  ov_descrs : descrs m' = descrs m;
  ov_svd : sv_d m' = sv_d m;
  ov_ddom : ddom m' = ddom m;
  ov_states : forall h, states m' h = match alist_get (t_s t) h with Some s => Some s | None => states m h end;
  ov_svs : forall h, sv_s m' h = match alist_get (t_s t) h, states m h with Some _, Some o => Some (s_ver o) | _, _ => sv_s m h end;
  ov_cstates : forall k, cstates m' k = match alist_get (t_c t) k with Some x => x | None => cstates m k end;
  ov_svc : forall k, sv_c m' k = match alist_get (t_c t) k, cstates m k with Some _, Some o => Some (c_ver o) | _, _ => sv_c m k end;
  ov_cdom : forall k, In k (cdom m') <-> In k (cdom m) \/ In k (map fst (t_c t));
  ov_cnodup : NoDup (cdom m) -> NoDup (cdom m');
  ov_no_c : t_c t = [] -> cstates m' = cstates m /\ sv_c m' = sv_c m /\ cdom m' = cdom m;
  ov_no_s : t_s t = [] -> states m' = states m /\ sv_s m' = sv_s m
}.

Lemma handle_state_updates_ver m t : ver (handle_state_updates m t) = ver m.
Proof. unfold handle_state_updates. now rewrite !(fold_frame ver). Qed.

Lemma hsu_spec m t : NoDup (map fst (t_s t)) -> NoDup (map fst (t_c t)) -> overlaid m t (handle_state_updates m t).
Proof.
  intros Hs Hc. unfold handle_state_updates.
  set (m1 := fold_left (fun m' e => put_state m' (fst e) (snd e)) (t_s t) m).
  pose proof (fold_put_state_pair _ m Hs) as S. pose proof (fold_put_cstate_pair _ m1 Hc) as C.
  cbv zeta in S, C. fold m1 in S.
  assert (E1 : cstates m1 = cstates m) by now apply (fold_frame cstates).
  assert (E2 : sv_c m1 = sv_c m) by now apply (fold_frame sv_c).
  assert (E3 : cdom m1 = cdom m) by now apply (fold_frame cdom).
  constructor.
  - rewrite (fold_frame descrs) by reflexivity. now apply (fold_frame descrs).
  - rewrite (fold_frame sv_d) by reflexivity. now apply (fold_frame sv_d).
  - rewrite (fold_frame ddom) by reflexivity. now apply (fold_frame ddom).
  - intros h. rewrite (fold_frame states) by reflexivity. specialize (S h). destruct (alist_get (t_s t) h); now injection S.
  - intros h. rewrite (fold_frame sv_s) by reflexivity. specialize (S h). destruct (alist_get (t_s t) h); now injection S.
  - intros k. specialize (C k). rewrite E1 in C. destruct (alist_get (t_c t) k); now injection C.
  - intros k. specialize (C k). rewrite E1, E2 in C. destruct (alist_get (t_c t) k); now injection C.
  - intros k. now rewrite fold_put_cstate_cdom, E3.
  - rewrite <- E3. apply fold_put_cstate_nodup.
  - intros ->. now repeat split.
  - intros Es. subst m1. rewrite Es. split; [apply (fold_frame states)|apply (fold_frame sv_s)]; reflexivity.
Qed.

(* a commit without items is skipped; otherwise MdibVersion + 1 and the write-back *)
Lemma commit_states_eq m t :
  t_s t = [] /\ t_c t = [] /\ commit_states m t = m \/ commit_states m t = handle_state_updates (bump_ver m) t.
Proof. unfold commit_states. destruct (t_s t), (t_c t); auto. Qed.

Lemma commit_states_empty m t : t_s t = [] -> t_c t = [] -> commit_states m t = m.
Proof. unfold commit_states. now intros -> ->. Qed.

Lemma commit_states_spec m t : NoDup (map fst (t_s t)) -> NoDup (map fst (t_c t)) -> overlaid m t (commit_states m t).
Proof.
  intros Hs Hc. destruct (commit_states_eq m t) as [(Es & Ec & ->)| ->].
  - constructor; intros; rewrite ?Es, ?Ec; cbn [alist_get map In]; reflexivity || tauto.
  - destruct (hsu_spec (bump_ver m) t Hs Hc). now constructor.
Qed.

Lemma commit_states_ver m t :
  ver (commit_states m t) = if (match t_s t, t_c t with [], [] => true | _, _ => false end) then ver m else ver m + 1.
Proof.
  unfold commit_states. destruct (t_s t), (t_c t); try reflexivity; now rewrite handle_state_updates_ver.
Qed.

Lemma commit_descr_empty m t : t_d t = [] -> commit_descr m t = m.
Proof. unfold commit_descr. now intros ->. Qed.

Lemma d_add_inv m t h par k p sp t' : d_add m t h par k p sp = Ok t' ->
  let d := mkDescr par k (set_version (sv_d m) h 0) p in
  alist_has (t_d t) h = false /\ descrs m h = None /\
  (k = K_CTX /\ t' = mkTx (alist_set (t_d t) h (Some d)) (t_s t) (t_c t) \/
   k <> K_CTX /\ alist_has (t_s t) h = false /\
   t' = mkTx (alist_set (t_d t) h (Some d))
             (alist_set (t_s t) h (mkState (set_version (sv_d m) h 0) (set_version (sv_s m) h 0) sp)) (t_c t)).
Proof.
  unfold d_add. destruct (alist_has (t_d t) h); [discriminate|]. destruct (descrs m h); [discriminate|].
  destruct (Z.eqb_spec k K_CTX) as [Ek|Ek]; [intros [= <-]; cbv zeta; auto|].
  destruct (alist_has (t_s t) h); [discriminate|]. intros [= <-]. cbv zeta. split; [reflexivity|]. split; [reflexivity|]. now right.
Qed.
Lemma d_upd_inv m t h p t' : d_upd m t h p = Ok t' ->
  alist_has (t_d t) h = false /\ exists o, descrs m h = Some o /\
  t' = mkTx (alist_set (t_d t) h (Some (mkDescr (d_parent o) (d_kind o) (d_ver o + 1) p))) (t_s t) (t_c t).
Proof.
  unfold d_upd. destruct (alist_has (t_d t) h); [discriminate|]. destruct (descrs m h) as [o|]; [|discriminate].
  intros [= <-]. split; [reflexivity|]. now exists o.
Qed.
Lemma d_del_inv m t h t' : d_del m t h = Ok t' ->
  alist_has (t_d t) h = false /\ descrs m h <> None /\ t' = mkTx (alist_set (t_d t) h None) (t_s t) (t_c t).
Proof.
  unfold d_del. destruct (alist_has (t_d t) h); [discriminate|]. destruct (descrs m h) as [o|]; [|discriminate].
  intros [= <-]. now repeat split.
Qed.
Lemma d_state_inv m t h p t' : d_state m t h p = Ok t' ->
  exists d o, alist_get (t_d t) h = Some (Some d) /\ d_kind d <> K_CTX /\ alist_has (t_s t) h = false /\ states m h = Some o /\
  t' = mkTx (t_d t) (alist_set (t_s t) h (mkState (s_dver o) (s_ver o + 1) p)) (t_c t).
Proof.
  unfold d_state. destruct (alist_get (t_d t) h) as [[d|]|]; try discriminate.
  destruct (Z.eqb_spec (d_kind d) K_CTX) as [Ek|Ek]; [discriminate|]. destruct (alist_has (t_s t) h); [discriminate|].
  destruct (states m h) as [o|]; [|discriminate]. intros [= <-]. now exists d, o.
Qed.

Lemma body_app k m l1 : forall l2 t,
  body k m t (l1 ++ l2) = match body k m t l1 with Ok t1 => body k m t1 l2 | Rej e => Rej e end.
Proof.
  induction l1 as [|a r IH]; intros l2 t; cbn [body app]; [reflexivity|].
  destruct (apply_action k m t a); [apply IH|reflexivity].
Qed.

Lemma body_inv k m (P : tx -> Prop) : forall acts,
  (forall a t t', In a acts -> P t -> apply_action k m t a = Ok t' -> P t') ->
  forall t t', P t -> body k m t acts = Ok t' -> P t'.
Proof.
  induction acts as [|a r IH]; intros Hstep t t' Ht; cbn [body]; [now intros [= <-]|].
  destruct (apply_action k m t a) as [t1|e] eqn:E; [|discriminate].
  apply IH; [intros a0 t0 t0' Hi; apply Hstep; now right|]. eapply Hstep; [now left|exact Ht|exact E].
Qed.

(* a transaction is either not committed (code <> 0, MDIB untouched) or ran its whole body, passed the checks of a
   descriptor transaction and committed *)
Lemma transaction_cases k ab acts m :
  (snd (transaction k ab acts m) <> 0 /\ fst (transaction k ab acts m) = m) \/
  (ab = None /\ exists t, body k m empty_tx acts = Ok t /\
     transaction k ab acts m = (if Z.eqb k 6 then commit_descr m t else commit_states m t, 0) /\
     (k = 6 -> subtree_conflict m t = false /\ orphan_create m t = false)).
Proof.
  unfold transaction. destruct ab as [n|].
  - left. destruct (body k m empty_tx (firstn n acts)) as [t|[| |]]; cbn; split; reflexivity || discriminate.
  - destruct (body k m empty_tx acts) as [t|[| |]]; try (left; cbn; split; reflexivity || discriminate).
    destruct (Z.eqb_spec k 6) as [->|Hk].
    + destruct (subtree_conflict m t) eqn:C; [left; cbn; split; reflexivity || discriminate|].
      destruct (orphan_create m t) eqn:O; [left; cbn; split; reflexivity || discriminate|].
      right. split; [reflexivity|]. exists t. now repeat split.
    + right. split; [reflexivity|]. exists t. repeat split; contradiction.
Qed.
