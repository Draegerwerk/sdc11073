(* C02 for descriptor transactions (kind 6): descriptor versions, state <-> descriptor consistency, deletion /
   re-creation bookkeeping, and the lift to histories of transactions of all kinds.
   Everything is stated about [transaction 6 None acts m] for EVERY list of descriptor calls: a transaction that creates or
   updates something inside a subtree it removes ([subtree_conflict]) or creates a descriptor whose parent neither
   exists nor is created with it ([orphan_create]) is refused with code 3, all others are covered. *)
From Coq Require Import List ZArith Bool Lia.
From SDC Require Import Mdib.Model Mdib.Proofs Mdib.Proofs_Ctx.
Import ListNotations.
Open Scope Z_scope.

Definition bumpd (d : descr) : descr := mkDescr (d_parent d) (d_kind d) (d_ver d + 1) (d_pay d).

(* [below m x r]: x is r or a descendant of r (parent links of the descriptors of m) *)
Inductive below (m : mdib) : H -> H -> Prop :=
| below_refl x : below m x x
| below_step x d p r : descrs m x = Some d -> d_parent d = Some p -> below m p r -> below m x r.

(* effective version of a descriptor handle: the version it has, or the one remembered for the handle *)
Definition ev_d (m : mdib) (h : H) : Z :=
  match descrs m h with Some d => d_ver d | None => match sv_d m h with Some v => v | None => -1 end end.

Lemma ev_d_same m m' : descrs m' = descrs m -> sv_d m' = sv_d m -> forall h, ev_d m h <= ev_d m' h.
Proof. intros E1 E2 h. unfold ev_d. rewrite E1, E2. lia. Qed.

(* every non-root descriptor has an existing parent *)
Definition tree_ok (m : mdib) : Prop :=
  forall h d p, descrs m h = Some d -> d_parent d = Some p -> descrs m p <> None.

Lemma tree_ok_same m m' : descrs m' = descrs m -> tree_ok m -> tree_ok m'.
Proof. intros E Ht h d p. rewrite E. apply Ht. Qed.

(* well-formedness of the MDIB (preserved by every transaction, see [all_history]) *)
Record mdib_wf (m : mdib) : Prop := {
  wf_dom : forall h, descrs m h <> None -> In h (ddom m);                       (* ddom lists every descriptor *)
  wf_sd : forall h, states m h <> None -> descrs m h <> None;                   (* no state without descriptor *)
  wf_ctx : forall h d, descrs m h = Some d -> d_kind d = K_CTX -> states m h = None; (* context descriptors have no single state *)
  wf_cdom : forall ch, cstates m ch <> None -> In ch (cdom m)                        (* cdom lists every context state *)
}.

Definition descr_action (a : action) : Prop :=
  match a with ADAdd _ _ _ _ _ | ADUpd _ _ | ADDel _ | ADState _ _ => True | _ => False end.
Definition descr_only (acts : list action) : Prop := forall a, In a acts -> descr_action a.

Lemma reaches_below m f : forall x r, reaches m f x r = true -> below m x r.
Proof.
  induction f as [|f IH]; intros x r; cbn [reaches]; destruct (Z.eqb_spec x r) as [->|Hne];
    try (intros _; apply below_refl); [discriminate|].
  destruct (descrs m x) as [d|] eqn:E; [|discriminate].
  destruct (d_parent d) as [p|] eqn:P; [|discriminate].
  intros R. eapply below_step; eauto.
Qed.

Lemma reaches_mono m f : forall f' x r, (f <= f')%nat -> reaches m f x r = true -> reaches m f' x r = true.
Proof.
  induction f as [|f IH]; intros f' x r Hle; cbn [reaches].
  - destruct (Z.eqb_spec x r) as [->|]; [|discriminate]. intros _. destruct f'; cbn [reaches]; now rewrite Z.eqb_refl.
  - destruct f' as [|f']; [lia|]. cbn [reaches]. destruct (Z.eqb x r); [reflexivity|].
    destruct (descrs m x) as [d|]; [|discriminate]. destruct (d_parent d); [|discriminate]. apply IH. lia.
Qed.

(* parent links are functional, so the ancestors of a node form a chain *)
Lemma below_linear m y a : below m y a -> forall b, below m y b -> below m a b \/ below m b a.
Proof.
  induction 1 as [x|x d p r E P B IH]; intros b Hb; [now left|].
  inversion Hb as [|x' d' p' r' E' P' B']; subst.
  - right. eapply below_step; eauto.
  - rewrite E in E'. injection E' as <-. rewrite P in P'. injection P' as <-. now apply IH.
Qed.

Lemma below_absent m x r : descrs m x = None -> below m x r -> x = r.
Proof. intros E B. inversion B as [|? d ? ? E']; subst; [reflexivity|congruence]. Qed.

(* a chain that is intact (same parent links) in mc is followed by mc as well *)
Lemma reaches_transfer2 m mc r : forall f x,
  (forall y, below m x y -> below m y r -> y <> r ->
     exists d d', descrs m y = Some d /\ descrs mc y = Some d' /\ d_parent d' = d_parent d) ->
  reaches m f x r = true -> reaches mc f x r = true.
Proof.
  induction f as [|f IH]; intros x Hagree; cbn [reaches]; [tauto|].
  destruct (Z.eqb_spec x r) as [->|Hne]; [reflexivity|].
  destruct (descrs m x) as [d|] eqn:E; [|discriminate].
  destruct (d_parent d) as [p|] eqn:P; [|discriminate]. intros R.
  assert (B : below m x r) by (eapply below_step; eauto using reaches_below).
  destruct (Hagree x (below_refl _ _) B Hne) as (d1 & d' & E1 & E' & P').
  rewrite E in E1. injection E1 as <-. rewrite E', P', P. apply IH; [|exact R].
  intros y By Byr Hy. apply Hagree; [eapply below_step; eassumption|exact Byr|exact Hy].
Qed.

(* two MDIBs that agree on everything below r compute the same [reaches _ r] *)
Lemma reaches_transfer m mc r : (forall y, below m y r -> descrs mc y = descrs m y) ->
  forall f x, reaches m f x r = true -> reaches mc f x r = true.
Proof.
  intros Hagree f x. apply reaches_transfer2. intros y _ B Hne. rewrite (Hagree y B).
  destruct (descrs m y) as [d|] eqn:E; [now exists d, d|]. now apply (below_absent _ _ _ E) in B.
Qed.

Lemma subtree_In m r x : In x (subtree m r) <->
  In x (ddom m) /\ descrs m x <> None /\ reaches m (length (ddom m)) x r = true.
Proof.
  unfold subtree. rewrite filter_In. destruct (descrs m x); intuition (congruence || discriminate).
Qed.

Lemma below_trans m x y r : below m x y -> below m y r -> below m x r.
Proof. induction 1 as [x|x d p y E P B IH]; intros Byr; [exact Byr|]. eapply below_step; eauto. Qed.

(* a chain of parent links from x to r; every listed node has a descriptor *)
Inductive walk (m : mdib) : H -> list H -> H -> Prop :=
| walk_nil x : walk m x [] x
| walk_cons x d p l r : descrs m x = Some d -> d_parent d = Some p -> walk m p l r -> walk m x (x :: l) r.

Lemma walk_reaches m x l r : walk m x l r -> reaches m (length l) x r = true.
Proof.
  induction 1 as [x|x d p l r E P W IH]; cbn [length reaches]; [now rewrite Z.eqb_refl|].
  destruct (Z.eqb x r); [reflexivity|]. now rewrite E, P.
Qed.
Lemma walk_nodes m x l r : walk m x l r -> forall y, In y l -> descrs m y <> None.
Proof.
  induction 1 as [x|x d p l r E P W IH]; intros y; [intros []|]. intros [<-|Hy]; [congruence|now apply IH].
Qed.
Lemma walk_suffix m l1 : forall x l2 y r, walk m y (l1 ++ x :: l2) r -> walk m x (x :: l2) r.
Proof.
  induction l1 as [|a l1 IH]; intros x l2 y r W; cbn [app] in W; inversion W; subst; [assumption|eapply IH; eassumption].
Qed.
(* a chain that visits a node twice can be cut short *)
Lemma below_walk m x r : below m x r -> exists l, walk m x l r /\ NoDup l.
Proof.
  induction 1 as [x|x d p r E P B (l & W & N)]; [exists []; split; constructor|].
  destruct (in_dec Z.eq_dec x l) as [Hin|Hnin].
  - apply in_split in Hin. destruct Hin as (l1 & l2 & ->). exists (x :: l2).
    split; [eapply walk_suffix; exact W|now apply NoDup_app_inv in N as (_ & N & _)].
  - exists (x :: l). split; [econstructor; eassumption|now constructor].
Qed.

Lemma fuel_ok m : (forall h, descrs m h <> None -> In h (ddom m)) ->
  forall x r, below m x r -> reaches m (length (ddom m)) x r = true.
Proof.
  intros Hdom x r B. destruct (below_walk m x r B) as (l & W & N).
  apply (reaches_mono m (length l)); [|now apply walk_reaches].
  apply NoDup_incl_length; [exact N|]. intros y Hy. apply Hdom. eapply walk_nodes; eassumption.
Qed.

Lemma below_reaches m : (forall h, descrs m h <> None -> In h (ddom m)) ->
  forall x r, below m x r <-> reaches m (length (ddom m)) x r = true.
Proof. intros Hdom x r. split; [now apply fuel_ok|apply reaches_below]. Qed.

(* a descriptor item against the MDIB the transaction started from *)
Definition ditem_ok (m : mdib) (h : H) (x : option descr) : Prop :=
  match x, descrs m h with
  | Some d, None => d_ver d = set_version (sv_d m) h 0
  | Some d, Some o => d_parent d = d_parent o /\ d_kind d = d_kind o /\ d_ver d = d_ver o + 1
  | None, Some _ => True
  | None, None => False
  end.
(* the call that left the item *)
Definition act_of (m : mdib) (acts : list action) (h : H) (x : option descr) : Prop :=
  match x with
  | Some d => (descrs m h = None /\ exists p sp, In (ADAdd h (d_parent d) (d_kind d) p sp) acts) \/
              (descrs m h <> None /\ exists p, In (ADUpd h p) acts)
  | None => In (ADDel h) acts
  end.
(* a state item belongs to a non-context descriptor item of the same handle: a new state, or the MDIB's with version + 1 *)
Definition sitem_ok (m : mdib) (t : tx) (h : H) (s : state) : Prop :=
  exists d, In (h, Some d) (t_d t) /\ d_kind d <> K_CTX /\
    ((descrs m h = None /\ s_ver s = set_version (sv_s m) h 0) \/
     (exists o, states m h = Some o /\ s_ver s = s_ver o + 1 /\ s_dver s = s_dver o)).

Lemma ditem_ok_upd m h d o : ditem_ok m h (Some d) -> descrs m h = Some o ->
  d_parent d = d_parent o /\ d_kind d = d_kind o /\ d_ver d = d_ver o + 1.
Proof. unfold ditem_ok. intros Ok E. now rewrite E in Ok. Qed.
Lemma ditem_ok_del m h : ditem_ok m h None -> descrs m h <> None.
Proof. unfold ditem_ok. now destruct (descrs m h). Qed.

Record dtx_ok (m : mdib) (acts : list action) (t : tx) : Prop := {
  dx_c : t_c t = [];
  dx_nodup : NoDup (map fst (t_d t));
  dx_snodup : NoDup (map fst (t_s t));
  dx_items : forall h x, In (h, x) (t_d t) -> ditem_ok m h x /\ act_of m acts h x;
  dx_sitems : forall h s, In (h, s) (t_s t) -> sitem_ok m t h s
}.

Lemma empty_dtx_ok m acts : dtx_ok m acts empty_tx.
Proof. constructor; cbn; try reflexivity; try constructor; intros; contradiction. Qed.

Lemma dtx_add_d m A t h x : dtx_ok m A t -> alist_has (t_d t) h = false -> ditem_ok m h x -> act_of m A h x ->
  dtx_ok m A (mkTx (alist_set (t_d t) h x) (t_s t) (t_c t)).
Proof.
  intros [Hc Hn Hsn Hi Hs] Hh Ok Act. constructor; cbn [t_d t_s t_c]; try assumption.
  - now apply alist_set_nodup.
  - intros h' x' Hin. apply (alist_set_new_in _ _ _ _ _ Hh) in Hin. destruct Hin as [[= -> ->]|Hin]; [now split|now apply Hi].
  - intros h' s Hin. destruct (Hs h' s Hin) as (d & Hd & R). exists d. split; [now apply alist_set_keeps|exact R].
Qed.
Lemma dtx_add_s m A t h s : dtx_ok m A t -> alist_has (t_s t) h = false -> sitem_ok m t h s ->
  dtx_ok m A (mkTx (t_d t) (alist_set (t_s t) h s) (t_c t)).
Proof.
  intros [Hc Hn Hsn Hi Hs] Hh Ok. constructor; cbn [t_d t_s t_c]; try assumption; [now apply alist_set_nodup|].
  intros h' s' Hin. apply (alist_set_new_in _ _ _ _ _ Hh) in Hin. destruct Hin as [[= -> ->]|Hin]; [exact Ok|now apply Hs].
Qed.

Lemma d_step_ok m A t a t' : dtx_ok m A t -> descr_action a -> In a A ->
  apply_action 6 m t a = Ok t' -> dtx_ok m A t'.
Proof.
  intros Hok Ha HA. destruct a; cbn in Ha; try contradiction; cbn [apply_action]; intros E.
  - apply d_add_inv in E. cbv zeta in E. destruct E as (Hh & Eo & E).
    assert (Hd : dtx_ok m A (mkTx (alist_set (t_d t) h (Some (mkDescr parent k (set_version (sv_d m) h 0) p))) (t_s t) (t_c t))).
    { apply dtx_add_d; [exact Hok|exact Hh|unfold ditem_ok; now rewrite Eo|]. left. split; [exact Eo|]. now exists p, sp. }
    destruct E as [[_ ->]|(Ek & Hsh & ->)]; [exact Hd|]. apply (dtx_add_s _ _ _ _ _ Hd Hsh).
    eexists. split; [apply (alist_set_new_in _ _ _ _ _ Hh); now left|]. split; [exact Ek|]. left. now split.
  - apply d_upd_inv in E. destruct E as (Hh & o & Eo & ->).
    apply dtx_add_d; [exact Hok|exact Hh|unfold ditem_ok; rewrite Eo; cbn; now repeat split|].
    right. split; [congruence|]. now exists p.
  - apply d_del_inv in E. destruct E as (Hh & Eo & ->). apply dtx_add_d; [exact Hok|exact Hh| |exact HA].
    unfold ditem_ok. now destruct (descrs m h).
  - apply d_state_inv in E. destruct E as (d & o & G & Ek & Hsh & Eo & ->). apply dtx_add_s; [exact Hok|exact Hsh|].
    exists d. split; [now apply alist_get_some_in|]. split; [exact Ek|]. right. exists o. now repeat split.
Qed.

Lemma body_dtx_ok m A : forall acts t t',
  descr_only acts -> incl acts A -> dtx_ok m A t -> body 6 m t acts = Ok t' -> dtx_ok m A t'.
Proof.
  intros acts t t' Ho Hi. apply body_inv. intros a t0 t1 Ha Hok. apply (d_step_ok m A t0 a t1 Hok); [now apply Ho|now apply Hi].
Qed.

(* conversely every accepted call left its item *)
Definition item_of (m : mdib) (t : tx) (a : action) : Prop :=
  match a with
  | ADAdd h par k p sp => In (h, Some (mkDescr par k (set_version (sv_d m) h 0) p)) (t_d t) /\ descrs m h = None /\
                          (k <> K_CTX -> In h (map fst (t_s t)))
  | ADUpd h p => (exists d, In (h, Some d) (t_d t)) /\ descrs m h <> None
  | ADDel h => In (h, None) (t_d t) /\ descrs m h <> None
  | ADState h p => In h (map fst (t_s t))
  | _ => True
  end.

Lemma d_step_mono m t a t' : descr_action a -> apply_action 6 m t a = Ok t' ->
  (forall k x, In (k, x) (t_d t) -> In (k, x) (t_d t')) /\
  (forall k, In k (map fst (t_s t)) -> In k (map fst (t_s t'))) /\ item_of m t' a.
Proof.
  intros Ha. destruct a; cbn in Ha; try contradiction; cbn [apply_action item_of]; intros E.
  - apply d_add_inv in E. cbv zeta in E. destruct E as (Hh & Eo & [[Ek ->]|(Ek & Hsh & ->)]); cbn [t_d t_s];
      (split; [intros k0 x; now apply alist_set_keeps|]).
    + split; [tauto|]. split; [apply (alist_set_new_in _ _ _ _ _ Hh); now left|]. now split.
    + split; [intros k0 Hk; apply alist_set_key; now right|]. split; [apply (alist_set_new_in _ _ _ _ _ Hh); now left|].
      split; [exact Eo|]. intros _. apply alist_set_key. now left.
  - apply d_upd_inv in E. destruct E as (Hh & o & Eo & ->). cbn [t_d t_s]. split; [intros k0 x; now apply alist_set_keeps|].
    split; [tauto|]. split; [|congruence]. eexists. apply (alist_set_new_in _ _ _ _ _ Hh). now left.
  - apply d_del_inv in E. destruct E as (Hh & Eo & ->). cbn [t_d t_s]. split; [intros k0 x; now apply alist_set_keeps|].
    split; [tauto|]. split; [|exact Eo]. apply (alist_set_new_in _ _ _ _ _ Hh). now left.
  - apply d_state_inv in E. destruct E as (d & o & _ & _ & _ & _ & ->). cbn [t_d t_s]. split; [tauto|].
    split; [intros k0 Hk; apply alist_set_key; now right|apply alist_set_key; now left].
Qed.

Lemma item_of_mono m t t' a :
  (forall k x, In (k, x) (t_d t) -> In (k, x) (t_d t')) ->
  (forall k, In k (map fst (t_s t)) -> In k (map fst (t_s t'))) -> item_of m t a -> item_of m t' a.
Proof.
  intros M1 M2. destruct a; cbn [item_of]; try tauto.
  - intros (I & E & K). split; [now apply M1|]. split; [assumption|]. intros Hk. apply M2. now apply K.
  - intros [(d & I) E]. split; [exists d; now apply M1|assumption].
  - intros [I E]. split; [now apply M1|assumption].
  - apply M2.
Qed.

Lemma body_items m : forall acts t t', descr_only acts -> body 6 m t acts = Ok t' ->
  (forall k x, In (k, x) (t_d t) -> In (k, x) (t_d t')) /\
  (forall k, In k (map fst (t_s t)) -> In k (map fst (t_s t'))) /\
  (forall a, In a acts -> item_of m t' a).
Proof.
  induction acts as [|a r IH]; intros t t' Ho; cbn [body].
  - intros [= <-]. repeat split; try tauto. intros a [].
  - destruct (apply_action 6 m t a) as [t1|e] eqn:E; [|discriminate]. intros B.
    destruct (d_step_mono m t a t1 (Ho a (or_introl eq_refl)) E) as (M1 & M2 & I).
    destruct (IH t1 t' (fun x Hx => Ho x (or_intror Hx)) B) as (N1 & N2 & J).
    split; [auto|]. split; [auto|]. intros x [<-|Hx]; [|now apply J].
    eapply item_of_mono; eassumption.
Qed.

(* The commit loop [fold_left (process_item cr up de) L] over an item list L with the properties a body leaves
   ([dtx_ok]) and without conflict, and what the MDIB looks like after the write-back: [commit_facts].
   The loop state is (MDIB, transaction, bumped list).  MDIB and bumped list do not depend on the transaction, so
   their invariant [Inv1] (closed forms [dval] / [Tabs] of the tables after a prefix [done], a reason [bwhy] for every
   bumped handle) and its converse [bumped_plain] are stepped on the projection [pi_m] ([inv1_step]).  The transaction
   needs all three components, so its invariant [InvT] is stepped on [process_item] itself ([invt_step], parent step
   [bump3]); [process_item_mb] joins the two in [invall_fold], which also
   keeps [bumped_upd] (every processed update is in the bumped list; no lemma about one step needs it, so it is not
   a field of [Inv1]).  [cm_all] reads [commit_facts] off [InvAll] at
   [done = L] and the write-back ([overlaid]); [commit_loop_facts] is the result of the section.  After the section
   [cr_spec] / [up_spec] / [rm_spec] / [no_conflict] discharge its hypotheses for [commit_descr]: [commit_descr_facts]. *)
(* process_item without the transaction component: the MDIB and the [bumped] list do not depend on it *)
Definition mb_bump (skip : bool) (p : H) (mb : mdib * list H) : mdib * list H :=
  let '(m, b) := mb in
  if skip || memz p b then mb else
  match descrs m p with Some dp => (set_descr m p (Some (bumpd dp)), p :: b) | None => mb end.

Definition pi_m (cr up de : list H) (mb : mdib * list H) (e : H * option descr) : mdib * list H :=
  let '(m, b) := mb in
  let h := fst e in
  match snd e, descrs m h with
  | Some d, None => match d_parent d with
                    | Some p => mb_bump (memz p cr || memz p up) p (set_descr m h (Some d), b)
                    | None => (set_descr m h (Some d), b)
                    end
  | None, Some o => match d_parent o with
                    | Some p => mb_bump (memz p de || memz p up) p (fold_left rm_one (subtree m h) m, b)
                    | None => (fold_left rm_one (subtree m h) m, b)
                    end
  | Some d, Some _ => (set_descr m h (Some d), h :: b)
  | None, None => mb
  end.

(* [bump3]: the guarded parent step that [process_item] has twice (create, delete), as a function of the loop state;
   [guarded_bump] rewrites either occurrence into it, [bump3_mb] says that [mb_bump] is its projection *)
Definition bump3 (skip : bool) (p : H) (mtb : mdib * tx * list H) : mdib * tx * list H :=
  let '(m, t, b) := mtb in
  if skip || memz p b then mtb else
  match descrs m p with
  | Some dp => let m' := set_descr m p (Some (bumpd dp)) in
               (m', upd_corr_state m' t p (d_ver (bumpd dp)) (d_kind (bumpd dp)), p :: b)
  | None => mtb
  end.

Lemma guarded_bump (g : bool) p m t b :
  (if g || memz p b then (m, t, b)
   else let '(mb, tb) := bump_parent m t p in (mb, tb, match descrs m p with Some _ => p :: b | None => b end)) =
  bump3 g p (m, t, b).
Proof. unfold bump3, bump_parent. destruct (g || memz p b); [reflexivity|]. now destruct (descrs m p). Qed.

Lemma bump3_mb skip p m t b :
  (fst (fst (bump3 skip p (m, t, b))), snd (bump3 skip p (m, t, b))) = mb_bump skip p (m, b).
Proof. unfold bump3, mb_bump. destruct (skip || memz p b); [reflexivity|]. now destruct (descrs m p). Qed.

Lemma process_item_mb cr up de m t b e :
  (fst (fst (process_item cr up de (m, t, b) e)), snd (process_item cr up de (m, t, b) e)) = pi_m cr up de (m, b) e.
Proof.
  unfold process_item, pi_m. destruct (snd e) as [d|]; destruct (descrs m (fst e)) as [o|]; try reflexivity.
  - destruct (d_parent d) as [p|]; [|reflexivity]. rewrite guarded_bump, <- (bump3_mb _ p _ t).
    now destruct (bump3 _ p _) as [[m2 t2] b2].
  - destruct (d_parent o) as [p|]; [|reflexivity]. rewrite guarded_bump. apply bump3_mb.
Qed.

Lemma fold_process_mb cr up de l : forall m t b,
  let r := fold_left (process_item cr up de) l (m, t, b) in
  (fst (fst r), snd r) = fold_left (pi_m cr up de) l (m, b).
Proof.
  induction l as [|e r IH]; intros m t b; cbn [fold_left]; [reflexivity|].
  pose proof (process_item_mb cr up de m t b e) as E.
  destruct (process_item cr up de (m, t, b) e) as [[m1 t1] b1]. cbn [fst snd] in E. rewrite <- E. apply IH.
Qed.

Definition ucs_s (st : H -> option state) (ts : list (H * state)) (h : H) (dv k : Z) : list (H * state) :=
  if Z.eqb k K_CTX then ts else
  match alist_get ts h with
  | Some n => alist_set ts h (mkState dv (s_ver n) (s_pay n))
  | None => match st h with
            | Some o => alist_set ts h (mkState dv (s_ver o + 1) (s_pay o))
            | None => ts
            end
  end.

Lemma ucs_ts m t h dv k : t_s (upd_corr_state m t h dv k) = ucs_s (states m) (t_s t) h dv k.
Proof.
  unfold upd_corr_state, ucs_s. destruct (Z.eqb k K_CTX).
  - apply (fold_frame t_s). intros t' ch. destruct (cstates m ch) as [c|]; [|reflexivity].
    destruct (negb (c_dh c =? h)); [reflexivity|]. destruct (alist_get (t_c t') ch) as [[n|]|]; reflexivity.
  - destruct (alist_get (t_s t) h); [reflexivity|]. destruct (states m h); reflexivity.
Qed.

Lemma ucs_s_get st ts x dv k y :
  alist_get (ucs_s st ts x dv k) y =
  if negb (Z.eqb k K_CTX) && Z.eqb y x then
    match alist_get ts x with
    | Some n => Some (mkState dv (s_ver n) (s_pay n))
    | None => match st x with Some o => Some (mkState dv (s_ver o + 1) (s_pay o)) | None => None end
    end
  else alist_get ts y.
Proof.
  unfold ucs_s. destruct (Z.eqb k K_CTX); cbn [negb andb]; [reflexivity|].
  destruct (alist_get ts x) as [n|] eqn:G.
  - rewrite alist_get_set. destruct (Z.eqb_spec y x) as [->|]; reflexivity.
  - destruct (st x) as [o|].
    + rewrite alist_get_set. destruct (Z.eqb_spec y x) as [->|]; reflexivity.
    + destruct (Z.eqb_spec y x) as [->|]; [exact G|reflexivity].
Qed.

Lemma ucs_s_nodup st ts x dv k : NoDup (map fst ts) -> NoDup (map fst (ucs_s st ts x dv k)).
Proof.
  intros Hn. unfold ucs_s. destruct (Z.eqb k K_CTX); [exact Hn|].
  destruct (alist_get ts x); [apply (alist_set_nodup _ _ _ Hn)|].
  destruct (st x); [apply (alist_set_nodup _ _ _ Hn)|exact Hn].
Qed.

Lemma ucs_s_keeps st ts x dv k y : alist_get ts y <> None -> alist_get (ucs_s st ts x dv k) y <> None.
Proof.
  rewrite ucs_s_get. destruct (negb (k =? K_CTX) && (y =? x)) eqn:E; [|tauto].
  apply andb_true_iff in E. destruct E as [_ E]. apply Z.eqb_eq in E. subst y.
  destruct (alist_get ts x); [discriminate|tauto].
Qed.

(* the pending context-state items after _update_corresponding_state: keys stay distinct, new keys are context states of h *)
Lemma ucs_tc_inv (Q : H -> Prop) m h dv k t :
  NoDup (map fst (t_c t)) -> (forall ch, alist_get (t_c t) ch <> None -> Q ch) ->
  (forall ch c, cstates m ch = Some c -> c_dh c = h -> Q ch) ->
  NoDup (map fst (t_c (upd_corr_state m t h dv k))) /\
  (forall ch, alist_get (t_c (upd_corr_state m t h dv k)) ch <> None -> Q ch).
Proof.
  intros Hn HQ Hnew. unfold upd_corr_state. destruct (Z.eqb k K_CTX).
  - apply (fold_inv (fun t' => NoDup (map fst (t_c t')) /\ (forall ch, alist_get (t_c t') ch <> None -> Q ch))); [|now split].
    intros t' ch [Hn' HQ']. destruct (cstates m ch) as [c|] eqn:Ec; [|now split].
    destruct (Z.eqb_spec (c_dh c) h) as [Eh|Eh]; cbn [negb]; [|now split].
    assert (Qch : Q ch) by (eapply Hnew; eassumption).
    destruct (alist_get (t_c t') ch) as [[n|]|]; cbn [t_c]; try (now split);
      (split; [apply (alist_set_nodup _ _ _ Hn')|]; intros y; rewrite alist_get_set; destruct (Z.eqb_spec y ch) as [->|]; auto).
  - destruct (alist_get (t_s t) h); [now split|]. destruct (states m h); now split.
Qed.

(* consistency of (descriptor table, state table, pending state items) *)
Definition dver_ok (good : H -> Prop) (dsc : H -> option descr) (st : H -> option state) (ts : list (H * state)) : Prop :=
  forall h d, good h -> dsc h = Some d ->
    match alist_get ts h with
    | Some s' => s_dver s' = d_ver d
    | None => forall s, st h = Some s -> s_dver s = d_ver d
    end.
Definition ctx_stateless (dsc : H -> option descr) (st : H -> option state) (ts : list (H * state)) : Prop :=
  forall h d, dsc h = Some d -> d_kind d = K_CTX -> st h = None /\ alist_get ts h = None.

(* the commit writes a descriptor first and lets its state item follow later: in between, the handle is exempt *)
Lemma dver_ok_upd (good : H -> Prop) dsc st ts x dx : dver_ok good dsc st ts -> dver_ok (fun y => good y /\ y <> x) (upd dsc x (Some dx)) st ts.
Proof. intros Hdv y dy [Hg Hne]. rewrite upd_eq. destruct (Z.eqb_spec x y); [congruence|]. now apply Hdv. Qed.
Lemma ctx_stateless_upd dsc st ts x dx : ctx_stateless dsc st ts -> (d_kind dx = K_CTX -> st x = None /\ alist_get ts x = None) ->
  ctx_stateless (upd dsc x (Some dx)) st ts.
Proof. intros Hcx Hx y dy. rewrite upd_eq. destruct (Z.eqb_spec x y) as [<-|_]; [intros [= <-]; exact Hx|apply Hcx]. Qed.
Lemma dver_ok_ucs (good : H -> Prop) dsc st ts x dx :
  dver_ok (fun y => good y /\ y <> x) dsc st ts -> ctx_stateless dsc st ts -> dsc x = Some dx ->
  dver_ok good dsc st (ucs_s st ts x (d_ver dx) (d_kind dx)) /\ ctx_stateless dsc st (ucs_s st ts x (d_ver dx) (d_kind dx)).
Proof.
  intros Hdv Hcx Ex. split.
  - intros y dy Gy. rewrite ucs_s_get. destruct (Z.eqb_spec y x) as [->|Hne]; [|rewrite andb_false_r; now apply Hdv].
    rewrite Ex. intros [= <-]. rewrite andb_true_r. destruct (Z.eqb_spec (d_kind dx) K_CTX) as [Ek|Ek]; cbn [negb].
    + destruct (Hcx x dx Ex Ek) as [E1 E2]. rewrite E2. intros s. congruence.
    + destruct (alist_get ts x); [reflexivity|]. destruct (st x); [reflexivity|discriminate].
  - intros y dy Ey Ek. rewrite ucs_s_get. destruct (Z.eqb_spec y x) as [->|Hne]; [|rewrite andb_false_r; now apply (Hcx y dy)].
    rewrite Ex in Ey. injection Ey as <-. rewrite Ek. now apply (Hcx x dx).
Qed.

(* the state of h (if any) carries the version of its descriptor (if any) *)
Definition good0 (m : mdib) (h : H) : Prop :=
  forall s d, states m h = Some s -> descrs m h = Some d -> s_dver s = d_ver d.

Section DescrFold.
  Variable m : mdib.
  Variable L : list (H * option descr).
  Variables cr up de : list H.
  Hypothesis HLn : NoDup (map fst L).
  Hypothesis HLi : forall h x, In (h, x) L -> ditem_ok m h x.
  Hypothesis Hdom : forall h, descrs m h <> None -> In h (ddom m).
  Hypothesis Hsd : forall h, states m h <> None -> descrs m h <> None.
  Hypothesis Hcdom : forall ch, cstates m ch <> None -> In ch (cdom m).

  (* the handles this transaction removes: the subtrees (before the commit) of the removed descriptors *)
  Definition Rm (h : H) : Prop := exists D, In (D, None) L /\ In h (subtree m D).

  Hypothesis Hcr : forall p, memz p cr = true <-> exists d, In (p, Some d) L /\ descrs m p = None.
  Hypothesis Hup : forall p, memz p up = true <-> exists d, In (p, Some d) L /\ descrs m p <> None.
  Hypothesis Hde : forall p, memz p de = true <-> Rm p.
  (* no conflict: nothing is created or updated inside a removed subtree *)
  Hypothesis Hnc_h : forall h d, In (h, Some d) L -> ~ Rm h.
  Hypothesis Hnc_p : forall h d p, In (h, Some d) L -> d_parent d = Some p -> ~ Rm p.

  (* h has been processed: it is the key of an item of the prefix *)
  Definition pd (done : list (H * option descr)) (h : H) : bool := memz h (map fst done).
  Definition rem_below (done : list (H * option descr)) (h : H) : Prop := exists D, In (D, None) done /\ below m h D.
  (* an item that adds / removes a child of h *)
  Definition trig_item (e : H * option descr) (h : H) : Prop :=
    match snd e with
    | Some d => descrs m (fst e) = None /\ d_parent d = Some h
    | None => exists dc, descrs m (fst e) = Some dc /\ d_parent dc = Some h
    end.
  Definition trig (done : list (H * option descr)) (h : H) : Prop := exists e, In e done /\ trig_item e h.
  (* a removed descriptor whose parent is h *)
  Definition trigd (done : list (H * option descr)) (h : H) : Prop :=
    exists c dc, In (c, None) done /\ descrs m c = Some dc /\ d_parent dc = Some h.
  Definition trig2 (done : list (H * option descr)) (h : H) : Prop :=
    trig done h /\ (descrs m h = None -> trigd done h).

  Lemma pd_snoc done e h : pd (done ++ [e]) h = pd done h || Z.eqb h (fst e).
  Proof. unfold pd. rewrite map_app, memz_app. cbn [map]. rewrite memz_cons. cbn [memz existsb]. now rewrite orb_false_r. Qed.
  Lemma pd_in done h x : In (h, x) done -> pd done h = true.
  Proof. intros Hi. apply memz_In. now apply (in_map fst) in Hi. Qed.

  (* [below m] and [rem_below] as booleans: the fuel of [reaches] suffices in m.  One set in three readings:
     [rb done x = true] computes [rem_below done x] for a prefix, and at [done = L] both say [Rm x] *)
  Definition belowb (x r : H) : bool := reaches m (length (ddom m)) x r.
  Definition rb (done : list (H * option descr)) (x : H) : bool :=
    existsb (fun e => match snd e with None => belowb x (fst e) | Some _ => false end) done.

  Lemma belowb_iff x r : belowb x r = true <-> below m x r.
  Proof. split; [apply reaches_below|now apply fuel_ok]. Qed.
  Lemma rb_iff done x : rb done x = true <-> rem_below done x.
  Proof.
    unfold rb, rem_below. rewrite existsb_exists. split.
    - intros ([D [d|]] & Hi & B); [discriminate|]. exists D. split; [exact Hi|now apply belowb_iff].
    - intros (D & Hi & B). exists (D, None). split; [exact Hi|now apply belowb_iff].
  Qed.
  Lemma rb_snoc done e x :
    rb (done ++ [e]) x = rb done x || match snd e with None => belowb x (fst e) | Some _ => false end.
  Proof. unfold rb. rewrite existsb_app. cbn [existsb]. now rewrite orb_false_r. Qed.
  Lemma rb_below done x y : below m x y -> rb done y = true -> rb done x = true.
  Proof. rewrite !rb_iff. intros B (D & Hi & ByD). exists D. split; [exact Hi|eapply below_trans; eassumption]. Qed.

  Lemma del_exists D : In (D, None) L -> descrs m D <> None.
  Proof. intros HD. exact (ditem_ok_del _ _ (HLi _ _ HD)). Qed.

  Lemma below_Rm D x : In (D, None) L -> below m x D -> Rm x.
  Proof.
    intros HD B. exists D. split; [exact HD|]. apply subtree_In.
    assert (Ex : descrs m x <> None).
    { destruct (descrs m x) eqn:E; [discriminate|]. apply (below_absent _ _ _ E) in B. subst x. now apply del_exists in HD. }
    split; [now apply Hdom|]. split; [exact Ex|]. now apply fuel_ok.
  Qed.
  Lemma Rm_below x : Rm x -> descrs m x <> None /\ exists D, In (D, None) L /\ below m x D.
  Proof.
    intros (D & HD & Hx). apply subtree_In in Hx. destruct Hx as (_ & Ex & R). split; [exact Ex|].
    exists D. split; [exact HD|]. eapply reaches_below; exact R.
  Qed.
  Lemma rb_Rm done x : incl done L -> rb done x = true -> Rm x.
  Proof. intros Hd R. apply rb_iff in R. destruct R as (D & Hi & B). eapply below_Rm; [apply Hd; exact Hi|exact B]. Qed.
  Lemma Rm_rb x : Rm x -> rb L x = true.
  Proof. intros R. destruct (Rm_below x R) as (_ & D & HD & B). apply rb_iff. now exists D. Qed.

  (* the create / update item of a handle, if the transaction has one *)
  Definition item (h : H) : option descr := match alist_get L h with Some (Some d) => Some d | _ => None end.
  Definition plain (h : H) : Prop := forall d, ~ In (h, Some d) L.
  Definition no_upd (h : H) : Prop := forall d, In (h, Some d) L -> descrs m h = None.

  Lemma item_in h d : item h = Some d <-> In (h, Some d) L.
  Proof.
    unfold item. split.
    - destruct (alist_get L h) as [[d'|]|] eqn:G; try discriminate. intros [= <-]. now apply alist_get_some_in.
    - intros Hi. now rewrite (alist_get_in _ _ _ HLn Hi).
  Qed.
  Lemma item_none h : item h = None <-> plain h.
  Proof.
    split.
    - intros E d Hi. apply item_in in Hi. congruence.
    - intros G. destruct (item h) as [d|] eqn:E; [|reflexivity]. apply item_in in E. now apply G in E.
  Qed.
  Lemma Rm_plain h : Rm h -> item h = None.
  Proof. intros R. apply item_none. intros d Hi. exact (Hnc_h h d Hi R). Qed.
  Lemma del_plain D : In (D, None) L -> item D = None.
  Proof. intros HD. unfold item. now rewrite (alist_get_in _ _ _ HLn HD). Qed.

  (* the descriptor table during the loop: an item is in place once it has been processed (a created one may have
     been bumped since), everything else is gone with a removed ancestor or there, bumped or not.
     [b] is Python's descr_updated: the bumped parents AND the updated handles ([process_item] conses h on an update).
     Only a plain or created handle in [b] has its version + 1; an updated one carries the version of its item *)
  Definition bump_if (b : list H) (h : H) (d : descr) : descr := if memz h b then bumpd d else d.
  Definition dval (done : list (H * option descr)) (b : list H) (h : H) : option descr :=
    match item h with
    | Some d => if pd done h then Some (match descrs m h with Some _ => d | None => bump_if b h d end) else descrs m h
    | None => if rb done h then None else option_map (bump_if b h) (descrs m h)
    end.

  Lemma dval_item done b h d : In (h, Some d) L -> pd done h = true ->
    dval done b h = Some (match descrs m h with Some _ => d | None => bump_if b h d end).
  Proof. intros Hi Hp. unfold dval. now rewrite (proj2 (item_in h d) Hi), Hp. Qed.
  Lemma dval_plain done b h : plain h -> dval done b h = if rb done h then None else option_map (bump_if b h) (descrs m h).
  Proof. intros G. unfold dval. now rewrite (proj2 (item_none h) G). Qed.

  Lemma bump_if_cons b p h : h <> p -> bump_if (p :: b) h = bump_if b h.
  Proof. intros Hne. unfold bump_if. rewrite memz_cons. now destruct (Z.eqb_spec h p). Qed.
  Lemma bump_if_parent b h d : d_parent (bump_if b h d) = d_parent d.
  Proof. unfold bump_if. now destruct (memz h b). Qed.

  (* the other tables: what lies below a processed removal ([r], always [rb done]) is gone, its version saved; nothing
     else has changed *)
  Record Tabs (r : H -> bool) (mc : mdib) : Prop := {
    t_dom : forall h, descrs mc h <> None -> In h (ddom mc);
    t_fuel : (length (ddom m) <= length (ddom mc))%nat;
    t_svd : forall h, sv_d mc h = if r h then match descrs m h with Some d0 => Some (d_ver d0) | None => sv_d m h end else sv_d m h;
    t_st : forall h, states mc h = if r h then None else states m h;
    t_svs : forall h, sv_s mc h = if r h then match states m h with Some s => Some (s_ver s) | None => sv_s m h end else sv_s m h;
    t_cs : forall ch, cstates mc ch = match cstates m ch with Some c => if r (c_dh c) then None else Some c | None => None end;
    t_svc : forall ch, sv_c mc ch = match cstates m ch with Some c => if r (c_dh c) then Some (c_ver c) else sv_c m ch | None => sv_c m ch end;
    t_cdom : incl (cdom m) (cdom mc)
  }.

  Lemma tabs_ext r r' mc : (forall x, r' x = r x) -> Tabs r mc -> Tabs r' mc.
  Proof.
    intros E [A B C D F G I J]. constructor; try assumption; intros h; rewrite ?E; auto.
    - rewrite G. destruct (cstates m h); [now rewrite E|reflexivity].
    - rewrite I. destruct (cstates m h); [now rewrite E|reflexivity].
  Qed.

  Lemma tabs_set r mc k d : Tabs r mc -> Tabs r (set_descr mc k (Some d)).
  Proof.
    intros [A B C D F G I J]. constructor; try assumption.
    - intros h. rewrite set_descr_descrs. cbn [ddom set_descr]. rewrite add_dom_In.
      destruct (Z.eqb_spec k h) as [<-|_]; [now left|]. intros Hx. right. now apply A.
    - cbn [ddom set_descr]. pose proof (add_dom_len k (ddom mc)). lia.
  Qed.

  Lemma tabs_st_sub r mc h o : Tabs r mc -> states mc h = Some o -> states m h = Some o.
  Proof. intros HT. rewrite (t_st _ _ HT). now destruct (r h). Qed.
  Lemma tabs_cs_sub r mc ch c : Tabs r mc -> cstates mc ch = Some c -> cstates m ch = Some c.
  Proof. intros HT. rewrite (t_cs _ _ HT). destruct (cstates m ch) as [c0|]; [|discriminate]. now destruct (r (c_dh c0)). Qed.

  (* removal of the handles l, which are those below D that were still there *)
  Lemma tabs_rm r mc l bd : Tabs r mc -> (forall x, memz x l = bd x && negb (r x)) ->
    (forall x, memz x l = true -> descrs mc x = descrs m x) ->
    Tabs (fun x => r x || bd x) (fold_left rm_one l mc).
  Proof.
    intros [A B C D F G I J] K Same. destruct (rm_list_ddom l mc) as [J1 J2].
    assert (CS : forall ch, (cstates (fold_left rm_one l mc) ch, sv_c (fold_left rm_one l mc) ch) =
                            match cstates m ch with
                            | Some c => if r (c_dh c) || bd (c_dh c) then (None, Some (c_ver c)) else (Some c, sv_c m ch)
                            | None => (None, sv_c m ch)
                            end).
    { intros ch. rewrite (rm_list_cs l mc ch), G, I. destruct (cstates m ch) as [c|] eqn:Ec; [|reflexivity].
      destruct (r (c_dh c)) eqn:Er; [reflexivity|]. rewrite K, Er, andb_true_r.
      now rewrite (proj2 (memz_In ch (cdom mc))), andb_true_r by (apply J, Hcdom; congruence). }
    constructor.
    - intros h. rewrite rm_list_descrs. destruct (memz h l); [congruence|]. intros Hx. now apply J1, A.
    - lia.
    - intros h. rewrite rm_list_svd, C. specialize (Same h). rewrite K in *.
      destruct (r h), (bd h); cbn [andb orb negb] in *; try reflexivity. now rewrite Same.
    - intros h. rewrite rm_list_states, D, K. now destruct (r h), (bd h).
    - intros h. rewrite rm_list_svs, D, F, K. now destruct (r h), (bd h).
    - intros ch. specialize (CS ch). destruct (cstates m ch) as [c|]; [destruct (r (c_dh c) || bd (c_dh c))|]; now injection CS.
    - intros ch. specialize (CS ch). destruct (cstates m ch) as [c|]; [destruct (r (c_dh c) || bd (c_dh c))|]; now injection CS.
    - now rewrite rm_list_cdom.
  Qed.

  (* why h is in [b]: it is not removed, and it was updated, or (as a parent) some processed item adds or removes a
     child of it ([trig]); a handle created by this transaction can only owe that to a removed orphan child ([trigd]) *)
  Definition bwhy (done : list (H * option descr)) (h : H) : Prop :=
    ~ Rm h /\ ((exists d, In (h, Some d) done /\ descrs m h <> None) \/ (no_upd h /\ trig2 done h)).

  Record Inv1 (done : list (H * option descr)) (mc : mdib) (b : list H) : Prop := {
    i_d : forall h, descrs mc h = dval done b h;
    i_bwhy : forall h, memz h b = true -> bwhy done h;
    i_bex : forall h, memz h b = true -> descrs mc h <> None;
    i_tabs : Tabs (rb done) mc
  }.

  Section Split.
    Variables (done rest : list (H * option descr)) (e : H * option descr).
    Hypothesis HL : L = done ++ e :: rest.
    Lemma done_in : incl done L.
    Proof. intros x Hi. rewrite HL. apply in_or_app. now left. Qed.
    Lemma e_in : In e L.
    Proof. rewrite HL. apply in_or_app. right. now left. Qed.
    Lemma e_not_done : pd done (fst e) = false.
    Proof.
      apply memz_false. rewrite HL in HLn. exact (nodup_mid _ _ _ HLn).
    Qed.
    Lemma done'_in : incl (done ++ [e]) L.
    Proof. intros x. rewrite in_app_single. intros [Hi| ->]; [now apply done_in|exact e_in]. Qed.
  End Split.

  Lemma trig_mono done e h : trig done h -> trig (done ++ [e]) h.
  Proof. intros (x & Hi & T). exists x. split; [apply in_or_app; now left|exact T]. Qed.
  Lemma trig_snoc done e h : trig (done ++ [e]) h -> trig done h \/ trig_item e h.
  Proof. intros (x & Hi & T). apply in_app_single in Hi. destruct Hi as [Hi| ->]; [left; now exists x|now right]. Qed.
  Lemma bwhy_mono done e h : bwhy done h -> bwhy (done ++ [e]) h.
  Proof.
    intros [NR [(dx & Hi & Ex)|(G & T & Td)]]; (split; [exact NR|]).
    - left. exists dx. split; [apply in_or_app; now left|exact Ex].
    - right. split; [exact G|]. split; [now apply trig_mono|]. intros E. destruct (Td E) as (c & dc & Hi & R).
      exists c, dc. split; [apply in_or_app; now left|exact R].
  Qed.

  Lemma inv1_state_descr done mc b h : Inv1 done mc b -> states mc h <> None -> descrs mc h <> None.
  Proof.
    intros HI. rewrite (t_st _ _ (i_tabs _ _ _ HI)), (i_d _ _ _ HI). unfold dval.
    destruct (rb done h) eqn:R; [congruence|]. intros Es. apply Hsd in Es.
    destruct (descrs m h); [|contradiction]. destruct (item h); [destruct (pd done h)|]; discriminate.
  Qed.

  (* a handle of a removed subtree has no item and is not bumped: it is gone or untouched *)
  Lemma inv1_Rm done mc b x : Inv1 done mc b -> Rm x -> descrs mc x = if rb done x then None else descrs m x.
  Proof.
    intros HI R. rewrite (i_d _ _ _ HI). unfold dval, bump_if. rewrite (Rm_plain x R).
    destruct (memz x b) eqn:Mb; [destruct (i_bwhy _ _ _ HI x Mb) as [NR _]; contradiction|].
    now destruct (rb done x), (descrs m x).
  Qed.

  (* an item that is still to be processed has not been touched *)
  Lemma cur_item done rest h d mc b : L = done ++ (h, Some d) :: rest -> Inv1 done mc b ->
    item h = Some d /\ pd done h = false /\ descrs mc h = descrs m h /\ memz h b = false.
  Proof.
    intros HL HI. pose proof (proj2 (item_in h d) (e_in _ _ _ HL)) as It. pose proof (e_not_done _ _ _ HL) as Hp. cbn [fst] in Hp.
    assert (Ec : descrs mc h = descrs m h) by (rewrite (i_d _ _ _ HI); unfold dval; now rewrite It, Hp).
    repeat split; try assumption. destruct (memz h b) eqn:Mb; [|reflexivity]. exfalso.
    destruct (i_bwhy _ _ _ HI h Mb) as [_ [(dx & Hi & _)|(Nu & _)]]; [rewrite (pd_in _ _ _ Hi) in Hp; discriminate|].
    apply (i_bex _ _ _ HI h Mb). rewrite Ec. apply Nu with d. now apply item_in.
  Qed.

  (* the current descriptor of a handle that exists, expressed through the original one *)
  Lemma current_parent done mc b x dx : Inv1 done mc b -> descrs mc x = Some dx ->
    (exists d, In (x, Some d) L /\ descrs m x = None /\ d_parent dx = d_parent d) \/
    (exists d0, descrs m x = Some d0 /\ d_parent dx = d_parent d0).
  Proof.
    intros HI. rewrite (i_d _ _ _ HI). unfold dval. destruct (item x) as [d|] eqn:It.
    - apply item_in in It. destruct (descrs m x) as [d0|] eqn:Eo.
      + intros E. right. exists d0. split; [reflexivity|].
        destruct (pd done x); injection E as <-; [apply (ditem_ok_upd _ _ _ _ (HLi _ _ It) Eo)|reflexivity].
      + destruct (pd done x); [|discriminate]. intros [= <-]. left. exists d. rewrite bump_if_parent. now repeat split.
    - destruct (rb done x); [discriminate|]. destruct (descrs m x) as [d0|]; [|discriminate]. intros [= <-].
      right. exists d0. now rewrite bump_if_parent.
  Qed.

  (* whatever the loop removes lies in a removed subtree of the original MDIB *)
  Lemma below_mc_m done mc b D : Inv1 done mc b -> In (D, None) L -> forall x, below mc x D -> below m x D.
  Proof.
    intros HI HD x B. induction B as [x|x dx p r E P B IH]; [apply below_refl|]. specialize (IH HD).
    destruct (current_parent done mc b x dx HI E) as [(d & Hi & Eo & Pd)|(d0 & Eo & Pd)].
    - exfalso. rewrite P in Pd. apply (Hnc_p x d p Hi (eq_sym Pd)). now apply (below_Rm r).
    - eapply below_step; [exact Eo|rewrite <- Pd; exact P|exact IH].
  Qed.

  (* the subtree that the loop removes with D: what lies below D in m and has not gone before.  The chain from such an
     x to D is intact in mc: its nodes are in [Rm], so they have no item and are never bumped, and [ddom] only grows *)
  Lemma subtree_mc done mc b D : Inv1 done mc b -> In (D, None) L ->
    forall x, memz x (subtree mc D) = belowb x D && negb (rb done x).
  Proof.
    intros HI HD x. pose proof (i_tabs _ _ _ HI) as HT.
    destruct (belowb x D) eqn:B; cbn [andb].
    - apply belowb_iff in B. pose proof (below_Rm D x HD B) as Rx. pose proof (inv1_Rm _ _ _ x HI Rx) as Ex.
      destruct (rb done x) eqn:R; cbn [negb].
      + apply memz_false. intros Hx. apply subtree_In in Hx. now destruct Hx as (_ & Hx & _).
      + apply memz_In, subtree_In. split; [apply (t_dom _ _ HT)|split]; try (rewrite Ex; apply (Rm_below x Rx)).
        apply (reaches_mono mc (length (ddom m))); [apply (t_fuel _ _ HT)|].
        apply (reaches_transfer2 m mc D); [|now apply fuel_ok].
        intros y Bxy ByD _. pose proof (below_Rm D y HD ByD) as Ry. destruct (Rm_below y Ry) as [Ey _].
        rewrite (inv1_Rm _ _ _ y HI Ry). destruct (rb done y) eqn:R2; [now rewrite (rb_below done x y Bxy R2) in R|].
        destruct (descrs m y) as [d0|]; [|contradiction]. now exists d0, d0.
    - apply memz_false. intros Hx. apply subtree_In in Hx. destruct Hx as (_ & _ & Hx). apply reaches_below in Hx.
      apply (below_mc_m done mc b D HI HD), belowb_iff in Hx. congruence.
  Qed.

  Lemma inv1_set done rest h d mc b : L = done ++ (h, Some d) :: rest -> Inv1 done mc b ->
    Inv1 (done ++ [(h, Some d)]) (set_descr mc h (Some d)) (match descrs m h with Some _ => h :: b | None => b end).
  Proof.
    intros HL HI. destruct (cur_item done rest h d mc b HL HI) as (It & Hp & Ec & Mb). pose proof (e_in _ _ _ HL) as He.
    assert (Hrb : forall x, rb (done ++ [(h, Some d)]) x = rb done x) by (intros x; rewrite rb_snoc; apply orb_false_r).
    constructor.
    - intros x. rewrite set_descr_descrs. unfold dval. rewrite pd_snoc, Hrb. cbn [fst].
      destruct (Z.eqb_spec h x) as [<-|Hne].
      + rewrite It, Z.eqb_refl, orb_true_r. destruct (descrs m h); [reflexivity|]. unfold bump_if. now rewrite Mb.
      + destruct (Z.eqb_spec x h); [congruence|]. rewrite orb_false_r, (i_d _ _ _ HI). unfold dval.
        destruct (descrs m h); rewrite ?bump_if_cons by congruence; reflexivity.
    - intros x Mx. destruct (descrs m h) eqn:Eo; [|apply bwhy_mono; now apply (i_bwhy _ _ _ HI)].
      rewrite memz_cons in Mx. destruct (Z.eqb_spec x h) as [Exh|_]; [|apply bwhy_mono; now apply (i_bwhy _ _ _ HI)].
      subst x. split; [exact (Hnc_h h d He)|]. left. exists d. split; [apply in_or_app; right; now left|congruence].
    - intros x Mx. rewrite set_descr_descrs. destruct (Z.eqb_spec h x) as [<-|Hne]; [discriminate|].
      apply (i_bex _ _ _ HI). destruct (descrs m h); [|exact Mx]. rewrite memz_cons in Mx. destruct (Z.eqb_spec x h); [congruence|exact Mx].
    - apply tabs_set. exact (tabs_ext _ _ _ Hrb (i_tabs _ _ _ HI)).
  Qed.

  (* the parent bump: p exists, is not removed by this transaction, is not updated by it and was not bumped before *)
  Lemma inv1_bump done p dp mc b :
    Inv1 done mc b -> descrs mc p = Some dp -> memz p b = false -> ~ Rm p -> no_upd p -> trig2 done p ->
    Inv1 done (set_descr mc p (Some (bumpd dp))) (p :: b).
  Proof.
    intros HI Ep Mb NRm Nu Tp. constructor.
    - intros x. rewrite set_descr_descrs. destruct (Z.eqb_spec p x) as [<-|Hne].
      + rewrite (i_d _ _ _ HI) in Ep. unfold dval, bump_if in *. rewrite memz_cons, Z.eqb_refl. rewrite Mb in Ep. cbn [orb].
        destruct (item p) as [d|] eqn:It.
        * apply item_in in It. rewrite (Nu d It) in *. destruct (pd done p); [|discriminate]. now injection Ep as <-.
        * destruct (rb done p) eqn:R; [discriminate|]. destruct (descrs m p); [|discriminate]. now injection Ep as <-.
      + rewrite (i_d _ _ _ HI). unfold dval. now rewrite !bump_if_cons by congruence.
    - intros x Mx. rewrite memz_cons in Mx. destruct (Z.eqb_spec x p) as [Exp|_]; [|now apply (i_bwhy _ _ _ HI)].
      subst x. split; [exact NRm|]. right. now split.
    - intros x Mx. rewrite set_descr_descrs. destruct (Z.eqb_spec p x) as [|Hne]; [discriminate|].
      rewrite memz_cons in Mx. destruct (Z.eqb_spec x p); [congruence|]. now apply (i_bex _ _ _ HI).
    - apply tabs_set, (i_tabs _ _ _ HI).
  Qed.

  (* a removal whose descriptor already went with an ancestor's subtree: nothing happens *)
  Lemma inv1_skip done D mc b : In (D, None) L -> Inv1 done mc b -> descrs mc D = None ->
    rb done D = true /\ Inv1 (done ++ [(D, None)]) mc b.
  Proof.
    intros He HI Ec.
    assert (RD : rb done D = true).
    { rewrite (inv1_Rm _ _ _ D HI) in Ec by (apply (below_Rm D); [exact He|apply below_refl]).
      destruct (rb done D); [reflexivity|]. now apply del_exists in He. }
    assert (Hrb : forall x, rb (done ++ [(D, None)]) x = rb done x).
    { intros x. rewrite rb_snoc. cbn [fst snd]. destruct (belowb x D) eqn:B; [|apply orb_false_r].
      apply belowb_iff in B. rewrite (rb_below done x D B RD). reflexivity. }
    split; [exact RD|]. constructor.
    - intros x. rewrite (i_d _ _ _ HI). unfold dval. rewrite pd_snoc, Hrb. cbn [fst].
      destruct (item x) eqn:It; [|reflexivity]. destruct (Z.eqb_spec x D) as [->|]; [|now rewrite orb_false_r].
      rewrite (del_plain D He) in It. discriminate.
    - intros x Mx. apply bwhy_mono. now apply (i_bwhy _ _ _ HI).
    - exact (i_bex _ _ _ HI).
    - exact (tabs_ext _ _ _ Hrb (i_tabs _ _ _ HI)).
  Qed.

  Lemma inv1_delete done D o mc b : In (D, None) L -> Inv1 done mc b -> descrs mc D = Some o ->
    descrs m D = Some o /\ Inv1 (done ++ [(D, None)]) (fold_left rm_one (subtree mc D) mc) b.
  Proof.
    intros He HI Ec. pose proof (subtree_mc done mc b D HI He) as K.
    assert (RD : Rm D) by (apply (below_Rm D); [exact He|apply below_refl]).
    assert (Sub : forall x, memz x (subtree mc D) = true -> Rm x /\ rb done x = false).
    { intros x Hx. rewrite K in Hx. apply andb_true_iff in Hx. destruct Hx as [B R]. apply belowb_iff in B.
      split; [now apply (below_Rm D)|now destruct (rb done x)]. }
    split.
    { rewrite (inv1_Rm _ _ _ D HI RD) in Ec. now destruct (rb done D). }
    constructor.
    - intros x. rewrite rm_list_descrs, (i_d _ _ _ HI), K. unfold dval. rewrite pd_snoc, rb_snoc. cbn [fst snd].
      destruct (item x) as [dx|] eqn:It; [|now destruct (rb done x), (belowb x D)].
      destruct (Z.eqb_spec x D) as [->|_]; [rewrite (del_plain D He) in It; discriminate|]. rewrite orb_false_r.
      destruct (belowb x D && negb (rb done x)) eqn:Hx; [|reflexivity]. rewrite <- K in Hx.
      rewrite (Rm_plain x (proj1 (Sub x Hx))) in It. discriminate.
    - intros x Mx. apply bwhy_mono. now apply (i_bwhy _ _ _ HI).
    - intros x Mx. rewrite rm_list_descrs. destruct (memz x (subtree mc D)) eqn:Hx; [|now apply (i_bex _ _ _ HI)].
      exfalso. exact (proj1 (i_bwhy _ _ _ HI x Mx) (proj1 (Sub x Hx))).
    - eapply tabs_ext; [|apply (tabs_rm (rb done) mc (subtree mc D) (fun x => belowb x D) (i_tabs _ _ _ HI) K)].
      + intros x. apply rb_snoc.
      + intros x Hx. destruct (Sub x Hx) as [Rx R]. now rewrite (inv1_Rm _ _ _ x HI Rx), R.
  Qed.

  (* every add / remove of a child of an existing handle that is neither removed nor updated has bumped it *)
  Definition bumped_plain (done : list (H * option descr)) (b : list H) : Prop :=
    forall h d0, trig done h -> descrs m h = Some d0 -> ~ Rm h -> plain h -> memz h b = true.
  (* ... and so has every processed update of its own handle: what [cf_state_follows] needs, a new descriptor
     version means bumped, and bumped means a state item ([si_bumped]) *)
  Definition bumped_upd (done : list (H * option descr)) (b : list H) : Prop :=
    forall h d, In (h, Some d) done -> descrs m h <> None -> memz h b = true.

  Lemma bumped_plain_snoc done e b b' : bumped_plain done b -> (forall y, memz y b = true -> memz y b' = true) ->
    (forall x d0, trig_item e x -> descrs m x = Some d0 -> ~ Rm x -> plain x -> memz x b' = true) -> bumped_plain (done ++ [e]) b'.
  Proof.
    intros HB Hmono He x d0 T Ex NR G. apply trig_snoc in T.
    destruct T as [T|T]; [exact (Hmono x (HB x d0 T Ex NR G))|exact (He x d0 T Ex NR G)].
  Qed.

  Lemma plain_lists p : (forall d, ~ In (p, Some d) L) -> memz p cr = false /\ memz p up = false.
  Proof.
    intros G. split.
    - destruct (memz p cr) eqn:E; [|reflexivity]. apply Hcr in E. destruct E as (d & Hi & _). now apply G in Hi.
    - destruct (memz p up) eqn:E; [|reflexivity]. apply Hup in E. destruct E as (d & Hi & _). now apply G in Hi.
  Qed.
  Lemma not_de p : ~ Rm p -> memz p de = false.
  Proof. intros NR. destruct (memz p de) eqn:E; [|reflexivity]. now apply Hde in E. Qed.
  Lemma up_false_no_upd p : memz p up = false -> no_upd p.
  Proof.
    intros U d Hi. destruct (descrs m p) eqn:E; [|reflexivity]. exfalso.
    assert (T : memz p up = true) by (apply Hup; exists d; split; [exact Hi|congruence]). congruence.
  Qed.
  (* what the guard of the parent step says *)
  Lemma guard_true X p : (memz p X = true -> Rm p \/ exists d', In (p, Some d') L) ->
    memz p X || memz p up = true -> Rm p \/ exists d', In (p, Some d') L.
  Proof.
    intros HX G. apply orb_true_iff in G. destruct G as [U|U]; [now apply HX|].
    apply Hup in U. destruct U as (d' & Hi & _). right. now exists d'.
  Qed.
  Lemma guard_cr p : memz p cr = true -> Rm p \/ exists d', In (p, Some d') L.
  Proof. intros U. apply Hcr in U. destruct U as (d' & Hi & _). right. now exists d'. Qed.
  Lemma guard_de p : memz p de = true -> Rm p \/ exists d', In (p, Some d') L.
  Proof. intros U. left. now apply Hde. Qed.

  (* an existing, plain (no item), unremoved handle is present with its original or bumped descriptor *)
  Lemma plain_present done mc b p d0 : incl done L -> Inv1 done mc b ->
    descrs m p = Some d0 -> ~ Rm p -> plain p -> descrs mc p = Some (bump_if b p d0).
  Proof.
    intros Hd HI Eo NRm G. rewrite (i_d _ _ _ HI), (dval_plain _ _ _ G), Eo.
    destruct (rb done p) eqn:R; [|reflexivity]. now apply rb_Rm in R.
  Qed.

  (* the parent step that follows an item e adding / removing a child of p.  Skipped means p is removed or has an item
     of its own, so it is not plain and [bumped_plain] owes nothing for it; not skipped gives the premises of
     [inv1_bump], the last one for a p that this transaction created: only a removed child can have named it *)
  Lemma inv1_mb_bump done e m1 b p skip :
    Inv1 (done ++ [e]) m1 b -> incl (done ++ [e]) L -> bumped_plain done b ->
    trig_item e p -> (forall x, trig_item e x -> x = p) ->
    (skip = true -> Rm p \/ exists d', In (p, Some d') L) ->
    (skip = false -> ~ Rm p /\ no_upd p /\ (descrs m p = None -> descrs m1 p <> None -> trigd (done ++ [e]) p)) ->
    Inv1 (done ++ [e]) (fst (mb_bump skip p (m1, b))) (snd (mb_bump skip p (m1, b))) /\
    bumped_plain (done ++ [e]) (snd (mb_bump skip p (m1, b))).
  Proof.
    intros HI Hd HB Te Tu Hs Hn. unfold mb_bump.
    assert (Skip : (skip = true \/ descrs m1 p = None) -> Inv1 (done ++ [e]) m1 b /\ bumped_plain (done ++ [e]) b).
    { intros Why. split; [exact HI|]. apply (bumped_plain_snoc done e b b HB); [tauto|]. intros x d0 T Ex NR G. apply Tu in T. subst x.
      exfalso. destruct Why as [Sk|En]; [destruct (Hs Sk) as [R|(d' & Hi)]; [contradiction|now apply G in Hi]|].
      rewrite (plain_present _ _ _ p d0 Hd HI Ex NR G) in En. discriminate. }
    destruct skip; [apply Skip; now left|]. cbn [orb]. destruct (memz p b) eqn:Mb.
    { split; [exact HI|]. apply (bumped_plain_snoc done e b b HB); [tauto|]. intros x d0 T _ _ _. apply Tu in T. now subst x. }
    destruct (descrs m1 p) as [dp|] eqn:Ep; [|apply Skip; now right]. cbn [fst snd].
    destruct (Hn eq_refl) as (NRm & Nu & Td). split.
    - apply (inv1_bump _ p dp _ _ HI Ep Mb NRm Nu). split.
      + exists e. split; [apply in_or_app; right; now left|exact Te].
      + intros En. apply (Td En). congruence.
    - apply (bumped_plain_snoc done e b (p :: b) HB).
      + intros y My. rewrite memz_cons, My. apply orb_true_r.
      + intros x d0 T _ _ _. apply Tu in T. subst x. now rewrite memz_cons, Z.eqb_refl.
  Qed.

  Lemma inv1_step done rest e mc b : L = done ++ e :: rest -> Inv1 done mc b -> bumped_plain done b ->
    Inv1 (done ++ [e]) (fst (pi_m cr up de (mc, b) e)) (snd (pi_m cr up de (mc, b) e)) /\
    bumped_plain (done ++ [e]) (snd (pi_m cr up de (mc, b) e)).
  Proof.
    intros HL HI HB. pose proof (e_in _ _ _ HL) as He. pose proof (done'_in _ _ _ HL) as Hd'.
    destruct e as [h [d|]]; unfold pi_m; cbn [fst snd].
    - destruct (cur_item done rest h d mc b HL HI) as (It & Hp & Ec & Mb). pose proof (inv1_set done rest h d mc b HL HI) as HI1.
      rewrite Ec. destruct (descrs m h) as [o|] eqn:Eo.
      + cbn [fst snd]. split; [exact HI1|]. apply (bumped_plain_snoc _ _ b _ HB).
        * intros y My. rewrite memz_cons, My. apply orb_true_r.
        * intros x d0 [T _]. cbn [fst] in T. congruence.
      + destruct (d_parent d) as [p|] eqn:P.
        * apply (inv1_mb_bump done (h, Some d) _ b p _ HI1 Hd' HB).
          -- now split.
          -- intros x [_ T]. cbn [snd] in T. congruence.
          -- apply guard_true, guard_cr.
          -- intros G. apply orb_false_iff in G. destruct G as [U1 U]. split; [exact (Hnc_p h d p He P)|]. split; [now apply up_false_no_upd|].
             intros En Ep. exfalso. rewrite (i_d _ _ _ HI1) in Ep. unfold dval in Ep. rewrite En in Ep.
             destruct (item p) as [d'|] eqn:Ip; [|now destruct (rb (done ++ [(h, Some d)]) p)].
             apply item_in in Ip. assert (T : memz p cr = true) by (apply Hcr; now exists d'). congruence.
        * cbn [fst snd]. split; [exact HI1|]. apply (bumped_plain_snoc _ _ b b HB); [tauto|]. intros x d0 [_ T]. cbn [snd] in T. congruence.
    - destruct (descrs mc h) as [o|] eqn:Ec.
      + destruct (inv1_delete done h o mc b He HI Ec) as (Eo & HI1).
        destruct (d_parent o) as [p|] eqn:P.
        * apply (inv1_mb_bump done (h, None) _ b p _ HI1 Hd' HB).
          -- now exists o.
          -- intros x (dc & T1 & T2). cbn [fst] in T1. congruence.
          -- apply guard_true, guard_de.
          -- intros G. apply orb_false_iff in G. destruct G as [U1 U]. split; [intros R; apply Hde in R; congruence|].
             split; [now apply up_false_no_upd|]. intros _ _. exists h, o. split; [apply in_or_app; right; now left|now split].
        * cbn [fst snd]. split; [exact HI1|]. apply (bumped_plain_snoc _ _ b b HB); [tauto|]. intros x d0 (dc & T1 & T2). cbn [fst] in T1. congruence.
      + (* already gone with an ancestor: so is the parent *)
        destruct (inv1_skip done h mc b He HI Ec) as (RD & HI1). cbn [fst snd]. split; [exact HI1|].
        apply (bumped_plain_snoc _ _ b b HB); [tauto|]. intros x d0 (dc & T1 & T2) _ NR _. exfalso. cbn [fst] in T1.
        apply rb_iff in RD. destruct RD as (D2 & Hi & B). apply NR. apply (below_Rm D2); [now apply (done_in _ _ _ HL)|].
        inversion B as [|? d' p' ? E' P' B']; subst.
        * pose proof (e_not_done _ _ _ HL) as Hp. cbn [fst] in Hp. rewrite (pd_in _ _ _ Hi) in Hp. discriminate.
        * rewrite T1 in E'. injection E' as <-. rewrite T2 in P'. now injection P' as <-.
  Qed.

  Lemma inv1_init : Inv1 [] (bump_ver m) [] /\ bumped_plain [] [].
  Proof.
    split; [|intros h d0 (e & [] & _)]. constructor; try (intros h [=]).
    - intros h. unfold dval, bump_if. cbn. destruct (item h); [reflexivity|]. now destruct (descrs m h).
    - constructor; cbn [bump_ver descrs states cstates sv_d sv_s sv_c ddom cdom rb existsb]; try reflexivity;
        try apply incl_refl; try (intros ch; now destruct (cstates m ch)).
      exact Hdom.
  Qed.

  (* [good]: the handles whose state carried its descriptor's version before the transaction; the loop keeps that for
     them ([dver_ok]), with [good0] for [good] at the end.
     The pending state items: why a handle has one ([sitem_why]: a non-context item of its own, or plain, bumped and
     non-context), which StateVersion it carries, and that every bumped non-context handle with a state has one *)
  Variable good : H -> Prop.
  Definition sitem_why (b : list H) (h : H) : Prop :=
    (exists d, In (h, Some d) L /\ d_kind d <> K_CTX) \/
    (plain h /\ memz h b = true /\ exists d0, descrs m h = Some d0 /\ d_kind d0 <> K_CTX).

  Record SItems (b : list H) (ts : list (H * state)) : Prop := {
    si_nodup : NoDup (map fst ts);
    si_why : forall h, alist_get ts h <> None -> sitem_why b h;
    si_ver : forall h s', alist_get ts h = Some s' ->
             s_ver s' = match states m h with Some o => s_ver o + 1 | None => set_version (sv_s m) h 0 end;
    si_bumped : forall h d0 o, memz h b = true -> descrs m h = Some d0 -> d_kind d0 <> K_CTX -> states m h = Some o ->
             alist_get ts h <> None
  }.

  Definition InvTC (tc : list (H * option cstate)) : Prop :=
    NoDup (map fst tc) /\ forall ch, alist_get tc ch <> None -> exists c, cstates m ch = Some c /\ ~ Rm (c_dh c).

  Lemma invtc_ucs r mm t x dv k : Tabs r mm -> ~ Rm x -> InvTC (t_c t) -> InvTC (t_c (upd_corr_state mm t x dv k)).
  Proof.
    intros HT Safe [Hn HQ].
    apply (ucs_tc_inv (fun ch => exists c, cstates m ch = Some c /\ ~ Rm (c_dh c)) mm x dv k t Hn HQ).
    intros ch c Ec Ex. exists c. split; [now apply (tabs_cs_sub r mm)|]. now rewrite Ex.
  Qed.

  (* what the loop keeps about the transaction it carries along: the pending state items (which never lose a key of
     ts0, the items of the transaction's body) and the pending context-state items *)
  Record InvT (ts0 : list (H * state)) (gd : H -> Prop) (b : list H) (mc : mdib) (t : tx) : Prop := {
    it_items : SItems b (t_s t);
    it_dver : dver_ok gd (descrs mc) (states mc) (t_s t);
    it_ctx : ctx_stateless (descrs mc) (states mc) (t_s t);
    it_tc : InvTC (t_c t);
    it_keep : forall y, alist_get ts0 y <> None -> alist_get (t_s t) y <> None
  }.

  Lemma invt_set ts0 gd b mm t x dx : InvT ts0 gd b mm t ->
    (d_kind dx = K_CTX -> states mm x = None /\ alist_get (t_s t) x = None) ->
    InvT ts0 (fun y => gd y /\ y <> x) b (set_descr mm x (Some dx)) t.
  Proof. intros [J A B C K] Hx. constructor; [exact J|now apply dver_ok_upd|now apply ctx_stateless_upd|exact C|exact K]. Qed.

  (* _update_corresponding_state for a descriptor x that is in place.  b' is b (create) or x :: b (update, parent
     step); the last hypothesis says what a new member x of b' owes to [si_bumped] *)
  Lemma invt_ucs ts0 (gd : H -> Prop) b b' r mm t x dx :
    Tabs r mm -> InvT ts0 (fun y => gd y /\ y <> x) b mm t -> descrs mm x = Some dx -> ~ Rm x ->
    (forall y, memz y b = true -> memz y b' = true) ->
    (d_kind dx <> K_CTX -> sitem_why b' x) ->
    (forall y, memz y b' = true -> memz y b = true \/
       (y = x /\ (forall d0, descrs m x = Some d0 -> d_kind d0 <> K_CTX -> d_kind dx <> K_CTX) /\
        (forall o, states m x = Some o -> states mm x = Some o))) ->
    InvT ts0 gd b' mm (upd_corr_state mm t x (d_ver dx) (d_kind dx)).
  Proof.
    intros HT [[Hn H4 H5 H6] A B C K] Ex Safe Hmono Hx Hnew. destruct (dver_ok_ucs gd _ _ _ x dx A B Ex) as [A' B'].
    constructor; rewrite ?ucs_ts; [|exact A'|exact B'|now apply (invtc_ucs r)|intros y Hy; now apply ucs_s_keeps, K].
    constructor.
    - now apply ucs_s_nodup.
    - intros y. rewrite ucs_s_get. destruct (Z.eqb_spec (d_kind dx) K_CTX) as [Ek|Ek]; cbn [negb andb].
      + intros Hy. destruct (H4 y Hy) as [A0|(A1 & A2 & A3)]; [now left|right; auto].
      + destruct (Z.eqb_spec y x) as [->|Hne]; [intros _; now apply Hx|].
        intros Hy. destruct (H4 y Hy) as [A0|(A1 & A2 & A3)]; [now left|right; auto].
    - intros y s'. rewrite ucs_s_get. destruct (Z.eqb_spec (d_kind dx) K_CTX) as [Ek|Ek]; cbn [negb andb]; [apply H5|].
      destruct (Z.eqb_spec y x) as [->|Hne]; [|apply H5].
      destruct (alist_get (t_s t) x) as [n|] eqn:G.
      + intros [= <-]. cbn [s_ver]. now apply H5.
      + destruct (states mm x) as [o|] eqn:Eo; [|discriminate]. intros [= <-]. cbn [s_ver]. now rewrite (tabs_st_sub _ _ _ _ HT Eo).
    - intros y d0 o My Ed Ek Es. destruct (Hnew y My) as [Mb|(-> & K1 & K2)].
      + apply ucs_s_keeps. eapply H6; eassumption.
      + rewrite ucs_s_get. specialize (K1 d0 Ed Ek). destruct (Z.eqb_spec (d_kind dx) K_CTX); [contradiction|].
        rewrite Z.eqb_refl. cbn [negb andb]. destruct (alist_get (t_s t) x); [discriminate|]. rewrite (K2 o Es). discriminate.
  Qed.

  Lemma bump3_other r skip p m1 t b h : Tabs r m1 -> (skip = false -> p <> h) ->
    Tabs r (fst (fst (bump3 skip p (m1, t, b)))) /\ descrs (fst (fst (bump3 skip p (m1, t, b)))) h = descrs m1 h.
  Proof.
    intros HT Hne. unfold bump3. destruct skip; [now split|]. cbn [orb]. destruct (memz p b); [now split|].
    destruct (descrs m1 p); [|now split]. cbn [fst]. split; [now apply tabs_set|].
    rewrite set_descr_descrs. destruct (Z.eqb_spec p h) as [E|_]; [now apply Hne in E|reflexivity].
  Qed.

  (* the parent step: the bumped parent takes its state item along *)
  Lemma invt_bump3 ts0 gd done m1 t b p skip :
    Inv1 done m1 b -> incl done L -> InvT ts0 gd b m1 t -> (skip = false -> ~ Rm p /\ no_upd p) ->
    let r := bump3 skip p (m1, t, b) in InvT ts0 gd (snd r) (fst (fst r)) (snd (fst r)).
  Proof.
    intros HI Hd HK Hn. cbv zeta. unfold bump3. destruct (skip || memz p b) eqn:G; [exact HK|].
    apply orb_false_iff in G. destruct G as [Sk Mb]. destruct (descrs m1 p) as [dp|] eqn:Ep; [|exact HK].
    destruct (Hn Sk) as [NRm Nu]. pose proof (i_tabs _ _ _ HI) as HT. cbn [fst snd].
    assert (R : rb done p = false) by (destruct (rb done p) eqn:R; [now apply rb_Rm in R|reflexivity]).
    pose proof Ep as Ed. rewrite (i_d _ _ _ HI) in Ed. unfold dval, bump_if in Ed. rewrite Mb, R in Ed.
    apply (invt_ucs ts0 gd b (p :: b) (rb done) _ t p (bumpd dp) (tabs_set _ _ p _ HT)).
    - apply invt_set; [exact HK|]. intros Ek. apply (it_ctx _ _ _ _ _ HK p dp Ep Ek).
    - now rewrite set_descr_descrs, Z.eqb_refl.
    - exact NRm.
    - intros y My. rewrite memz_cons, My. apply orb_true_r.
    - intros Ek. destruct (item p) as [d'|] eqn:It.
      + apply item_in in It. rewrite (Nu d' It) in Ed. destruct (pd done p); [|discriminate]. injection Ed as <-. left. now exists d'.
      + right. split; [now apply item_none|]. split; [now rewrite memz_cons, Z.eqb_refl|].
        destruct (descrs m p) as [d0|]; [|discriminate]. injection Ed as <-. now exists d0.
    - intros y My. rewrite memz_cons in My. destruct (Z.eqb_spec y p) as [Eyp|]; [subst y|now left].
      right. split; [reflexivity|]. split.
      + intros d0 E. rewrite E in Ed. destruct (item p) as [d'|] eqn:It; [apply item_in in It; rewrite (Nu d' It) in E; discriminate|].
        now injection Ed as <-.
      + intros o Es. cbn [states set_descr]. now rewrite (t_st _ _ HT), R.
  Qed.

  Lemma invt_step ts0 done rest e mc t b : L = done ++ e :: rest -> Inv1 done mc b -> InvT ts0 good b mc t ->
    let r := process_item cr up de (mc, t, b) e in InvT ts0 good (snd r) (fst (fst r)) (snd (fst r)).
  Proof.
    intros HL HI HK. pose proof (e_in _ _ _ HL) as He. pose proof (done'_in _ _ _ HL) as Hd'. pose proof (i_tabs _ _ _ HI) as HT.
    destruct e as [h [d|]]; cbv zeta; unfold process_item; cbn [fst snd].
    - destruct (cur_item done rest h d mc b HL HI) as (It & Hp & Ec & Mb). pose proof (inv1_set done rest h d mc b HL HI) as HI1.
      rewrite Ec. destruct (descrs m h) as [o|] eqn:Eo.
      + destruct (ditem_ok_upd _ _ _ _ (HLi _ _ He) Eo) as (_ & Ok & _). cbn [fst snd]. apply (invt_ucs ts0 good b (h :: b) (rb done) _ t h d (tabs_set _ _ h d HT)).
        * apply invt_set; [exact HK|]. intros Ek. apply (it_ctx _ _ _ _ _ HK h o); [now rewrite Ec|]. now rewrite <- Ok.
        * now rewrite set_descr_descrs, Z.eqb_refl.
        * exact (Hnc_h h d He).
        * intros y My. rewrite memz_cons, My. apply orb_true_r.
        * intros Ek. left. exists d. now split.
        * intros y My. rewrite memz_cons in My. destruct (Z.eqb_spec y h) as [Eyh|]; [subst y|now left].
          right. split; [reflexivity|]. split.
          -- intros d0 Ed. rewrite Eo in Ed. injection Ed as <-. congruence.
          -- intros o' Es. cbn [states set_descr]. rewrite (t_st _ _ HT). destruct (rb done h) eqn:R; [|exact Es].
             exfalso. exact (Hnc_h h d He (rb_Rm done h (done_in _ _ _ HL) R)).
      + (* create: the descriptor, then the parent, then the state item of the new descriptor *)
        assert (Pre : d_kind d = K_CTX -> states mc h = None /\ alist_get (t_s t) h = None).
        { intros Ek. split.
          - destruct (states mc h) eqn:Es; [|reflexivity]. exfalso. apply (inv1_state_descr _ _ _ h HI); congruence.
          - destruct (alist_get (t_s t) h) eqn:Gt; [|reflexivity]. exfalso.
            destruct (si_why _ _ (it_items _ _ _ _ _ HK) h) as [(d' & Hi & Ek')|(A & _)]; [congruence| |now apply A in He].
            pose proof (NoDup_fst_fun _ _ _ _ HLn Hi He) as Ed. injection Ed as ->. contradiction. }
        pose proof (invt_set ts0 good b mc t h d HK Pre) as HK1. pose proof (tabs_set _ _ h d HT) as HT1.
        set (m1 := set_descr mc h (Some d)) in *.
        assert (Eh : descrs m1 h = Some d) by (unfold m1; now rewrite set_descr_descrs, Z.eqb_refl).
        assert (Fin : forall m2 t2 b2, Tabs (rb done) m2 -> InvT ts0 (fun y => good y /\ y <> h) b2 m2 t2 -> descrs m2 h = Some d ->
                  InvT ts0 good b2 m2 (upd_corr_state m2 t2 h (d_ver d) (d_kind d))).
        { intros m2 t2 b2 T2 K2 E2. apply (invt_ucs ts0 good b2 b2 _ m2 t2 h d T2 K2 E2 (Hnc_h h d He)); [tauto| |now left].
          intros Ek. left. now exists d. }
        destruct (d_parent d) as [p|] eqn:P; [|now apply Fin]. rewrite guarded_bump.
        assert (Hn : memz p cr || memz p up = false -> ~ Rm p /\ no_upd p /\ p <> h).
        { intros G. apply orb_false_iff in G. destruct G as [U1 U]. split; [exact (Hnc_p h d p He P)|]. split; [now apply up_false_no_upd|].
          intros ->. assert (T : memz h cr = true) by (apply Hcr; now exists d). congruence. }
        destruct (bump3_other _ (memz p cr || memz p up) p m1 t b h HT1 (fun G => proj2 (proj2 (Hn G)))) as [T2 E2].
        pose proof (invt_bump3 ts0 _ _ m1 t b p _ HI1 Hd' HK1 (fun G => conj (proj1 (Hn G)) (proj1 (proj2 (Hn G))))) as HK2. cbv zeta in HK2.
        destruct (bump3 _ p (m1, t, b)) as [[m2 t2] b2]. cbn [fst snd] in *. apply Fin; [exact T2|exact HK2|now rewrite E2].
    - destruct (descrs mc h) as [o|] eqn:Ec; [|exact HK].
      destruct (inv1_delete done h o mc b He HI Ec) as (Eo & HI1).
      set (mc1 := fold_left rm_one (subtree mc h) mc) in *.
      assert (HK1 : InvT ts0 good b mc1 t).
      { destruct HK as [J Hdv Hcx C K]. constructor; try assumption.
        - intros y dy Hg. unfold mc1. rewrite rm_list_descrs. destruct (memz y (subtree mc h)) eqn:Ml; [discriminate|].
          intros Ey. specialize (Hdv y dy Hg Ey). destruct (alist_get (t_s t) y); [exact Hdv|].
          intros s. rewrite rm_list_states, Ml. apply Hdv.
        - intros y dy. unfold mc1. rewrite rm_list_descrs, rm_list_states. destruct (memz y (subtree mc h)); [discriminate|]. apply Hcx. }
      destruct (d_parent o) as [p|] eqn:P; [|exact HK1]. rewrite guarded_bump.
      apply (invt_bump3 ts0 _ _ mc1 t b p _ HI1 Hd' HK1).
      intros G. apply orb_false_iff in G. destruct G as [U1 U]. split; [intros R; apply Hde in R; congruence|now apply up_false_no_upd].
  Qed.

  Lemma mb_bump_mono skip p mc b y : memz y b = true -> memz y (snd (mb_bump skip p (mc, b))) = true.
  Proof.
    intros My. unfold mb_bump. destruct (skip || memz p b); [exact My|].
    destruct (descrs mc p); [|exact My]. cbn [snd]. rewrite memz_cons, My. apply orb_true_r.
  Qed.
  Lemma pi_m_b_mono mc b e y : memz y b = true -> memz y (snd (pi_m cr up de (mc, b) e)) = true.
  Proof.
    intros My. unfold pi_m. destruct (snd e) as [d|]; destruct (descrs mc (fst e)) as [o|]; try exact My.
    - cbn [snd]. rewrite memz_cons, My. apply orb_true_r.
    - destruct (d_parent d); [now apply mb_bump_mono|exact My].
    - destruct (d_parent o); [now apply mb_bump_mono|exact My].
  Qed.

  (* everything the loop keeps, after the prefix [done] of L; ts0 = the state items the body left *)
  Record InvAll (ts0 : list (H * state)) (done : list (H * option descr)) (mc : mdib) (b : list H) (t : tx) : Prop := {
    a_inv1 : Inv1 done mc b;
    a_bplain : bumped_plain done b;
    a_bupd : bumped_upd done b;
    a_t : InvT ts0 good b mc t
  }.

  Lemma invall_init t : t_d t = L -> NoDup (map fst (t_s t)) -> (forall h s, In (h, s) (t_s t) -> sitem_ok m t h s) -> t_c t = [] ->
    (forall h d, descrs m h = Some d -> d_kind d = K_CTX -> states m h = None) -> (forall h, good h -> good0 m h) ->
    InvAll (t_s t) [] (bump_ver m) [] t.
  Proof.
    intros EL Hsn Hs Hc Wc Hg0. destruct inv1_init as [I1 I2].
    constructor; [exact I1|exact I2|intros h d []|]. constructor; [| | | |tauto].
    - constructor.
      + exact Hsn.
      + intros h Hy. destruct (alist_get (t_s t) h) as [s|] eqn:G; [|contradiction]. apply alist_get_some_in in G.
        destruct (Hs h s G) as (d & Hd & Ek & _). left. exists d. split; [now rewrite <- EL|exact Ek].
      + intros h s' G. apply alist_get_some_in in G. destruct (Hs h s' G) as (d & Hd & Ek & [[E V]|(o & E & V & _)]); [|now rewrite E].
        destruct (states m h) eqn:Es; [exfalso; apply (Hsd h); congruence|exact V].
      + intros h d0 o [=].
    - intros h d Hg Ed. cbn [descrs states bump_ver] in *. destruct (alist_get (t_s t) h) as [s'|] eqn:G.
      + apply alist_get_some_in in G. destruct (Hs h s' G) as (d' & Hd & Ek & [[E V]|(o & E & V & Dv)]); [congruence|].
        rewrite Dv. now apply (Hg0 h Hg).
      + intros s Es. now apply (Hg0 h Hg).
    - intros h d Ed Ek. cbn [descrs states bump_ver] in *. split; [now apply (Wc h d)|].
      destruct (alist_get (t_s t) h) as [s'|] eqn:G; [|reflexivity]. exfalso. apply alist_get_some_in in G.
      destruct (Hs h s' G) as (d' & Hd & Ek' & _). rewrite EL in Hd. destruct (ditem_ok_upd _ _ _ _ (HLi _ _ Hd) Ed) as (_ & Ok & _). congruence.
    - rewrite Hc. split; [constructor|intros ch Hx; now contradiction Hx].
  Qed.

  Lemma invall_fold ts0 rest : forall done mc t b, L = done ++ rest -> InvAll ts0 done mc b t ->
    let r := fold_left (process_item cr up de) rest (mc, t, b) in InvAll ts0 L (fst (fst r)) (snd r) (snd (fst r)).
  Proof.
    induction rest as [|e r IH]; intros done mc t b HL [H1 H2 HBu HK]; cbn [fold_left].
    - rewrite app_nil_r in HL. subst done. now constructor.
    - pose proof (process_item_mb cr up de mc t b e) as Emb.
      pose proof (invt_step ts0 done r e mc t b HL H1 HK) as HK'. cbv zeta in HK'.
      destruct (inv1_step done r e mc b HL H1 H2) as [H1' H2'].
      assert (HBu' : bumped_upd (done ++ [e]) (snd (pi_m cr up de (mc, b) e))).
      { intros h d Hi Eo. apply in_app_single in Hi. destruct Hi as [Hi|Hi].
        - apply pi_m_b_mono. eapply HBu; eassumption.
        - subst e. destruct (cur_item done r h d mc b HL H1) as (_ & _ & Ec & _).
          unfold pi_m. cbn [fst snd]. rewrite Ec. destruct (descrs m h) as [o|]; [|congruence]. cbn [snd].
          now rewrite memz_cons, Z.eqb_refl. }
      destruct (process_item cr up de (mc, t, b) e) as [[mc' t'] b']. cbn [fst snd] in Emb, HK'.
      rewrite <- Emb in H1', H2', HBu'. cbn [fst snd] in *.
      apply (IH (done ++ [e])); [now rewrite <- app_assoc|now constructor].
  Qed.

  (* what the theorems of [Section DescrTx] use of the committed MDIB m', one field per claim; where a field speaks of
     a state's DescriptorVersion it is for the [good] handles ([good0 m] in [commit_descr_facts]); ts0 (the state
     items of the body) occurs in [cf_created] only: a created descriptor has a state if the body made one *)
  Record commit_facts (ts0 : list (H * state)) (m' : mdib) : Prop := {
    cf_descr : forall h d0 d', descrs m h = Some d0 -> descrs m' h = Some d' ->
      (In (h, Some d') L) \/ (plain h /\ trig L h /\ d' = bumpd d0) \/ (plain h /\ ~ trig L h /\ d' = d0);
    cf_state_descr : forall h s, good h -> states m' h = Some s -> exists d, descrs m' h = Some d /\ s_dver s = d_ver d;
    cf_sd : forall h, states m' h <> None -> descrs m' h <> None;
    cf_dom : forall h, descrs m' h <> None -> In h (ddom m');
    cf_ctx : forall h d, descrs m' h = Some d -> d_kind d = K_CTX -> states m' h = None;
    cf_deleted : forall D x, In (D, None) L -> In x (subtree m D) ->
      descrs m' x = None /\ states m' x = None /\
      (forall d0, descrs m x = Some d0 -> sv_d m' x = Some (d_ver d0)) /\
      (forall s, states m x = Some s -> sv_s m' x = Some (s_ver s));
    cf_created : forall h d, In (h, Some d) L -> descrs m h = None ->
      exists d', descrs m' h = Some d' /\ (d' = d \/ (d' = bumpd d /\ trigd L h)) /\
        (alist_get ts0 h <> None -> good h ->
         exists s, states m' h = Some s /\ s_dver s = d_ver d' /\ s_ver s = set_version (sv_s m) h 0);
    cf_state_step : forall h o s', states m h = Some o -> states m' h = Some s' -> s' = o \/ s_ver s' = s_ver o + 1;
    cf_state_follows : forall h d0 d' o,
      (forall x dx, descrs m x = Some dx -> d_kind dx = K_CTX -> states m x = None) ->
      good h -> descrs m h = Some d0 -> descrs m' h = Some d' -> d_ver d' <> d_ver d0 -> states m h = Some o ->
      exists s', states m' h = Some s' /\ s_ver s' = s_ver o + 1 /\ s_dver s' = d_ver d';
    cf_frame : forall h, plain h -> ~ trig L h -> ~ rem_below L h -> descrs m' h = descrs m h /\ states m' h = states m h;
    cf_ev_d : forall h, ev_d m h <= ev_d m' h;
    cf_cdeleted : forall D x ch c, In (D, None) L -> In x (subtree m D) -> cstates m ch = Some c -> c_dh c = x ->
      cstates m' ch = None /\ sv_c m' ch = Some (c_ver c);
    cf_cdom : forall ch, cstates m' ch <> None -> In ch (cdom m');
    cf_tree : tree_ok m ->
      (forall h d p, In (h, Some d) L -> descrs m h = None -> d_parent d = Some p ->
         descrs m p <> None \/ exists d2, In (p, Some d2) L /\ descrs m p = None) ->
      tree_ok m'
  }.

  Section Committed.
    Variables (mc : mdib) (b : list H) (t1 : tx) (ts0 : list (H * state)) (m' : mdib).
    Hypothesis HA : InvAll ts0 L mc b t1.
    Hypothesis Hov : overlaid mc t1 m'.

    Let H1 := a_inv1 _ _ _ _ _ HA.
    Let HT := i_tabs _ _ _ H1.
    Let HK := a_t _ _ _ _ _ HA.
    Let HJ := it_items _ _ _ _ _ HK.

    Lemma fin_item h d : In (h, Some d) L -> descrs mc h = Some (match descrs m h with Some _ => d | None => bump_if b h d end).
    Proof. intros Hi. now rewrite (i_d _ _ _ H1), (dval_item _ _ _ _ Hi (pd_in _ _ _ Hi)). Qed.
    Lemma fin_other h : plain h -> descrs mc h = if rb L h then None else option_map (bump_if b h) (descrs m h).
    Proof. intros G. now rewrite (i_d _ _ _ H1), (dval_plain _ _ _ G). Qed.
    Lemma plain_or h : (exists d, In (h, Some d) L) \/ plain h.
    Proof. destruct (item h) as [d|] eqn:It; [left; exists d; now apply item_in|right; now apply item_none]. Qed.
    Lemma not_rem_rb h : ~ rem_below L h -> rb L h = false.
    Proof. intros NR. destruct (rb L h) eqn:R; [now apply rb_iff in R|reflexivity]. Qed.
    Lemma fin_entry_notRm h : alist_get (t_s t1) h <> None -> ~ Rm h.
    Proof.
      intros Hy. destruct (si_why _ _ HJ h Hy) as [(d & Hi & _)|(_ & Mb & _)]; [exact (Hnc_h h d Hi)|exact (proj1 (i_bwhy _ _ _ H1 h Mb))].
    Qed.
    Lemma fin_entry_descr h : alist_get (t_s t1) h <> None -> descrs mc h <> None.
    Proof.
      intros Hy. pose proof (fin_entry_notRm h Hy) as NR.
      destruct (si_why _ _ HJ h Hy) as [(d & Hi & _)|(G & Mb & d0 & E & _)].
      - rewrite (fin_item h d Hi). discriminate.
      - rewrite (plain_present L mc b h d0 (incl_refl L) H1 E NR G). discriminate.
    Qed.
    Lemma fin_survive p : descrs m p <> None -> ~ Rm p -> descrs mc p <> None.
    Proof.
      intros E NR. destruct (plain_or p) as [(d2 & Hi)|G]; [rewrite (fin_item p d2 Hi); discriminate|].
      destruct (descrs m p) as [d0|] eqn:Eo; [|contradiction]. rewrite (plain_present L mc b p d0 (incl_refl L) H1 Eo NR G). discriminate.
    Qed.
    Lemma child_Rm h o p : Rm p -> descrs m h = Some o -> d_parent o = Some p -> Rm h.
    Proof.
      intros R E P. destruct (Rm_below p R) as (_ & D & HD & B). apply (below_Rm D); [exact HD|]. eapply below_step; eassumption.
    Qed.

    Lemma cm_descr h d0 d' : descrs m h = Some d0 -> descrs m' h = Some d' ->
      (In (h, Some d') L) \/ (plain h /\ trig L h /\ memz h b = true /\ d' = bumpd d0) \/ (plain h /\ ~ trig L h /\ d' = d0).
    Proof.
      intros E E'. rewrite (ov_descrs _ _ _ Hov) in E'. destruct (plain_or h) as [(d & Hi)|G].
      - left. rewrite (fin_item h d Hi), E in E'. now injection E' as <-.
      - right. rewrite (fin_other h G), E in E'. destruct (rb L h) eqn:R; [discriminate|]. injection E' as <-.
        unfold bump_if. destruct (memz h b) eqn:Mb.
        + left. repeat split; try assumption.
          destruct (i_bwhy _ _ _ H1 h Mb) as [_ [(d & Hi & _)|(_ & T)]]; [now apply G in Hi|exact (proj1 T)].
        + right. split; [exact G|]. split; [|reflexivity]. intros T.
          assert (NRm : ~ Rm h) by (intros Rh; apply Rm_rb in Rh; congruence).
          rewrite (a_bplain _ _ _ _ _ HA h d0 T E NRm G) in Mb. discriminate.
    Qed.

    Lemma cm_all : commit_facts ts0 m'.
    Proof.
      destruct Hov as [Hd' Hv' Hdd' Hs' Hvs' Hcs' Hvc' Hcd' _ _ _]. constructor.
      - (* cf_descr *) intros h d0 d' E E'. destruct (cm_descr h d0 d' E E') as [A|[(A0 & A1 & _ & A3)|A]]; [now left|right; left; auto|right; now right].
      - (* cf_state_descr *) intros h s Hg. rewrite Hs', Hd'. destruct (alist_get (t_s t1) h) as [s'|] eqn:G.
        + intros [= <-]. assert (Hy : alist_get (t_s t1) h <> None) by congruence.
          pose proof (fin_entry_descr h Hy) as Ed. destruct (descrs mc h) as [d|] eqn:E; [|contradiction].
          exists d. split; [reflexivity|]. pose proof (it_dver _ _ _ _ _ HK h d Hg E) as T. now rewrite G in T.
        + intros Es. assert (Ed : descrs mc h <> None) by (apply (inv1_state_descr _ _ _ h H1); congruence).
          destruct (descrs mc h) as [d|] eqn:E; [|contradiction]. exists d. split; [reflexivity|].
          pose proof (it_dver _ _ _ _ _ HK h d Hg E) as T. rewrite G in T. now apply T.
      - (* cf_sd *) intros h. rewrite Hs', Hd'. destruct (alist_get (t_s t1) h) as [s'|] eqn:G.
        + intros _. apply (fin_entry_descr h). congruence.
        + apply (inv1_state_descr _ _ _ h H1).
      - (* cf_dom *) intros h. rewrite Hd', Hdd'. apply (t_dom _ _ HT).
      - (* cf_ctx *) intros h d. rewrite Hd', Hs'. intros E Ek. destruct (it_ctx _ _ _ _ _ HK h d E Ek) as [S1 S2]. now rewrite S2.
      - (* cf_deleted *) intros D x HD Hx. assert (Rx : Rm x) by (exists D; now split). pose proof (Rm_rb x Rx) as R.
        assert (Gt : alist_get (t_s t1) x = None).
        { destruct (alist_get (t_s t1) x) eqn:G; [|reflexivity]. exfalso. apply (fin_entry_notRm x); [congruence|exact Rx]. }
        rewrite Hd', Hs', Hv', Hvs', Gt, (inv1_Rm _ _ _ x H1 Rx), (t_st _ _ HT), (t_svd _ _ HT), (t_svs _ _ HT), R.
        repeat split; [intros d0 ->|intros s ->]; reflexivity.
      - (* cf_created *) intros h d Hi Eo. pose proof (fin_item h d Hi) as E. rewrite Eo in E. eexists. rewrite Hd'. split; [exact E|]. unfold bump_if. split.
        + destruct (memz h b) eqn:Mb; [|now left]. right. split; [reflexivity|].
          destruct (i_bwhy _ _ _ H1 h Mb) as [_ [(dx & _ & Ex)|(_ & T)]]; [congruence|exact (proj2 T Eo)].
        + intros H0 Hg. apply (it_keep _ _ _ _ _ HK) in H0. destruct (alist_get (t_s t1) h) as [s'|] eqn:G; [|contradiction].
          exists s'. rewrite Hs'. rewrite G. split; [reflexivity|]. split.
          * pose proof (it_dver _ _ _ _ _ HK h _ Hg E) as T. now rewrite G in T.
          * rewrite (si_ver _ _ HJ h s' G). destruct (states m h) eqn:Es; [exfalso; apply (Hsd h); congruence|reflexivity].
      - (* cf_state_step *) intros h o s' E. rewrite Hs'. destruct (alist_get (t_s t1) h) as [s1|] eqn:G.
        + intros [= <-]. right. now rewrite (si_ver _ _ HJ h s1 G), E.
        + intros E'. left. apply (tabs_st_sub _ _ _ _ HT) in E'. congruence.
      - (* cf_state_follows *) intros h d0 d' o Hctx Hg E E' Hv Es.
        assert (Ek : d_kind d0 <> K_CTX) by (intros Ek; rewrite (Hctx h d0 E Ek) in Es; discriminate).
        assert (Mb : memz h b = true).
        { destruct (cm_descr h d0 d' E E') as [Hi|[(_ & _ & Mb & _)|(_ & _ & ->)]]; [|exact Mb|congruence].
          apply (a_bupd _ _ _ _ _ HA h d' Hi). congruence. }
        pose proof (si_bumped _ _ HJ h d0 o Mb E Ek Es) as Hy.
        destruct (alist_get (t_s t1) h) as [s1|] eqn:G; [|contradiction].
        exists s1. rewrite Hs'. rewrite G. split; [reflexivity|]. split.
        + now rewrite (si_ver _ _ HJ h s1 G), Es.
        + rewrite Hd' in E'. pose proof (it_dver _ _ _ _ _ HK h d' Hg E') as T. now rewrite G in T.
      - (* cf_frame *) intros h G NT NR.
        assert (Mb : memz h b = false).
        { destruct (memz h b) eqn:Mb; [exfalso|reflexivity].
          destruct (i_bwhy _ _ _ H1 h Mb) as [_ [(d & Hi & _)|(_ & T)]]; [now apply G in Hi|exact (NT (proj1 T))]. }
        rewrite Hd', Hs', (fin_other h G), (t_st _ _ HT), (not_rem_rb h NR). unfold bump_if. rewrite Mb. split; [now destruct (descrs m h)|].
        destruct (alist_get (t_s t1) h) as [s1|] eqn:Gt; [exfalso|reflexivity].
        destruct (si_why _ _ HJ h) as [(d & Hi & _)|(_ & Mb' & _)]; [congruence|now apply G in Hi|congruence].
      - (* cf_ev_d *) intros h. unfold ev_d. rewrite Hd', Hv', (t_svd _ _ HT). destruct (plain_or h) as [(d & Hi)|G].
        + pose proof (HLi _ _ Hi) as Ok. unfold ditem_ok in Ok. destruct (descrs m h) as [o|] eqn:Eo.
          * rewrite (fin_item h d Hi), Eo. lia.
          * rewrite (fin_item h d Hi), Eo. unfold set_version in Ok. unfold bump_if. destruct (memz h b); cbn [bumpd d_ver]; destruct (sv_d m h); lia.
        + rewrite (fin_other h G). destruct (rb L h); destruct (descrs m h) as [d0|]; cbn [option_map]; try lia.
          unfold bump_if. destruct (memz h b); cbn; lia.
      - (* cf_cdeleted *) intros D x ch c HD Hx Ec Ex. rewrite Hcs', Hvc', (t_cs _ _ HT), (t_svc _ _ HT), Ec.
        assert (Rx : Rm x) by (exists D; now split).
        assert (Gt : alist_get (t_c t1) ch = None).
        { destruct (alist_get (t_c t1) ch) eqn:G; [|reflexivity]. exfalso.
          destruct (proj2 (it_tc _ _ _ _ _ HK) ch) as (c' & Ec' & Safe); [congruence|]. rewrite Ec in Ec'. injection Ec' as <-.
          apply Safe. now rewrite Ex. }
        rewrite Gt, Ex, (Rm_rb x Rx). now split.
      - (* cf_cdom *) intros ch. rewrite Hcs', Hcd'. destruct (alist_get (t_c t1) ch) as [x|] eqn:G.
        + intros _. right. exact (alist_get_key _ _ _ G).
        + intros Hc. left. apply (t_cdom _ _ HT), Hcdom. rewrite (t_cs _ _ HT) in Hc. now destruct (cstates m ch).
      - (* cf_tree *) intros Ht Hno h d' p E' P. rewrite Hd' in *. destruct (plain_or h) as [(d & Hi)|G].
        + destruct (descrs m h) as [o|] eqn:Eo.
          * rewrite (fin_item h d Hi), Eo in E'. injection E' as <-.
            destruct (ditem_ok_upd _ _ _ _ (HLi _ _ Hi) Eo) as (Op & _).
            rewrite Op in P. apply fin_survive; [exact (Ht h o p Eo P)|].
            intros R. exact (Hnc_h h d Hi (child_Rm h o p R Eo P)).
          * rewrite (fin_item h d Hi), Eo in E'. injection E' as <-. rewrite bump_if_parent in P.
            destruct (Hno h d p Hi Eo P) as [Ep|(d2 & Hi2 & Ep)].
            -- apply fin_survive; [exact Ep|exact (Hnc_p h d p Hi P)].
            -- rewrite (fin_item p d2 Hi2). discriminate.
        + rewrite (fin_other h G) in E'. destruct (rb L h) eqn:R; [discriminate|].
          destruct (descrs m h) as [d0|] eqn:Eo; [|discriminate]. injection E' as <-. rewrite bump_if_parent in P.
          apply fin_survive; [exact (Ht h d0 p Eo P)|]. intros Rp. apply (child_Rm h d0 p Rp Eo), Rm_rb in P. congruence.
    Qed.
  End Committed.

  (* the whole commit loop followed by the write-back *)
  Lemma commit_loop_facts t : InvAll (t_s t) [] (bump_ver m) [] t ->
    let r := fold_left (process_item cr up de) L (bump_ver m, t, []) in
    commit_facts (t_s t) (handle_state_updates (fst (fst r)) (snd (fst r))).
  Proof.
    intros HA0. pose proof (invall_fold (t_s t) L [] (bump_ver m) t [] eq_refl HA0) as HA. cbv zeta in *.
    destruct (fold_left (process_item cr up de) L (bump_ver m, t, [])) as [[mc t1] b]. cbn [fst snd] in *.
    pose proof (a_t _ _ _ _ _ HA) as HK.
    exact (cm_all mc b t1 (t_s t) _ HA (hsu_spec mc t1 (si_nodup _ _ (it_items _ _ _ _ _ HK)) (proj1 (it_tc _ _ _ _ _ HK)))).
  Qed.
End DescrFold.

Lemma cr_spec m L p : memz p (map fst (filter (is_create m) L)) = true <-> exists d, In (p, Some d) L /\ descrs m p = None.
Proof.
  rewrite memz_In, in_map_iff. split.
  - intros ([k x] & <- & Hi). apply filter_In in Hi. destruct Hi as [Hi E]. unfold is_create in E. cbn [fst snd] in *.
    destruct x as [d|]; [|discriminate]. destruct (descrs m k) eqn:Ek; [discriminate|]. exists d. now split.
  - intros (d & Hi & E). exists (p, Some d). split; [reflexivity|]. apply filter_In. split; [exact Hi|].
    unfold is_create. cbn [fst snd]. now rewrite E.
Qed.
Lemma up_spec m L p : memz p (map fst (filter (is_update m) L)) = true <-> exists d, In (p, Some d) L /\ descrs m p <> None.
Proof.
  rewrite memz_In, in_map_iff. split.
  - intros ([k x] & <- & Hi). apply filter_In in Hi. destruct Hi as [Hi E]. unfold is_update in E. cbn [fst snd] in *.
    destruct x as [d|]; [|discriminate]. destruct (descrs m k) eqn:Ek; [|discriminate]. exists d. split; [exact Hi|discriminate].
  - intros (d & Hi & E). exists (p, Some d). split; [reflexivity|]. apply filter_In. split; [exact Hi|].
    unfold is_update. cbn [fst snd]. destruct (descrs m p); [reflexivity|contradiction].
Qed.
Lemma rm_spec m t p : (forall h x, In (h, x) (t_d t) -> ditem_ok m h x) ->
  memz p (removed_handles m t) = true <-> Rm m (t_d t) p.
Proof.
  intros Hi. unfold removed_handles, Rm. rewrite memz_In, in_flat_map. split.
  - intros ([k x] & He & Hp). unfold is_delete in Hp. cbn [fst snd] in Hp.
    destruct x as [d|]; [contradiction|]. destruct (descrs m k); [|contradiction]. now exists k.
  - intros (D & HD & Hp). exists (D, None). split; [exact HD|]. unfold is_delete. cbn [fst snd].
    pose proof (ditem_ok_del _ _ (Hi _ _ HD)). destruct (descrs m D); [exact Hp|contradiction].
Qed.

Lemma no_conflict m t : (forall h x, In (h, x) (t_d t) -> ditem_ok m h x) -> subtree_conflict m t = false ->
  (forall h d, In (h, Some d) (t_d t) -> ~ Rm m (t_d t) h) /\
  (forall h d p, In (h, Some d) (t_d t) -> d_parent d = Some p -> ~ Rm m (t_d t) p).
Proof.
  intros Hi Hc. unfold subtree_conflict in Hc. cbv zeta in Hc.
  pose proof (proj1 (existsb_false _ _) Hc) as A. cbv beta in A.
  split.
  - intros h d Hh R. apply (rm_spec m t h Hi) in R. specialize (A _ Hh). cbn [fst snd] in A. now rewrite R in A.
  - intros h d p Hh P R. apply (rm_spec m t p Hi) in R. specialize (A _ Hh). cbn [fst snd] in A.
    rewrite P, R in A. now rewrite orb_true_r in A.
Qed.

Lemma no_orphan m t : orphan_create m t = false ->
  forall h d p, In (h, Some d) (t_d t) -> descrs m h = None -> d_parent d = Some p ->
    descrs m p <> None \/ exists d2, In (p, Some d2) (t_d t) /\ descrs m p = None.
Proof.
  intros Ho h d p Hi Eo P. unfold orphan_create in Ho. cbv zeta in Ho.
  pose proof (proj1 (existsb_false _ _) Ho (h, Some d) Hi) as A. cbv beta in A.
  assert (Ic : is_create m (h, Some d) = true) by (unfold is_create; cbn [fst snd]; now rewrite Eo).
  rewrite Ic in A. cbn [fst snd andb] in A. rewrite P in A.
  destruct (descrs m p) as [dp|] eqn:Ep; [left; discriminate|]. right.
  destruct (memz p (map fst (filter (is_create m) (t_d t)))) eqn:M; [|cbn in A; discriminate].
  apply cr_spec in M. destruct M as (d2 & Hi2 & _). now exists d2.
Qed.

Lemma commit_descr_facts m acts t : mdib_wf m -> dtx_ok m acts t -> subtree_conflict m t = false ->
  commit_facts m (t_d t) (good0 m) (t_s t) (commit_descr m t).
Proof.
  intros [Wd Wsd Wc Wcd] [Hc Hn Hsn Hi Hs] Hnc.
  assert (Hi1 : forall h x, In (h, x) (t_d t) -> ditem_ok m h x) by (intros h x Hx; exact (proj1 (Hi h x Hx))).
  destruct (no_conflict m t Hi1 Hnc) as [Nh Np].
  assert (HA0 : InvAll m (t_d t) (good0 m) (t_s t) [] (bump_ver m) [] t) by (apply invall_init; auto).
  pose proof (commit_loop_facts m (t_d t) (map fst (filter (is_create m) (t_d t)))
                (map fst (filter (is_update m) (t_d t))) (removed_handles m t) Hn Hi1 Wd Wsd Wcd
                (cr_spec m _) (up_spec m _) (fun p => rm_spec m t p Hi1) Nh Np (good0 m) t HA0) as F. cbv zeta in F.
  unfold commit_descr. destruct (t_d t) as [|e0 r0] eqn:EL.
  - (* nothing to commit: the loop and the write-back are empty, and F speaks of [bump_ver m], which differs from m in
       [ver] only: no field of [commit_facts] mentions it, so the fields are those wanted up to conversion *)
    assert (Es : t_s t = []).
    { destruct (t_s t) as [|[h s] r]; [reflexivity|]. destruct (Hs h s (or_introl eq_refl)) as (d & Hd & _).
      rewrite EL in Hd. destruct Hd. }
    cbn [fold_left fst snd] in F. unfold handle_state_updates in F. rewrite Es, Hc in F. rewrite Es.
    destruct F. constructor; assumption.
  - rewrite <- EL in *. destruct (fold_left _ (t_d t) (bump_ver m, t, [])) as [[m1 t1] b1]. exact F.
Qed.

Lemma subtree_exact m : mdib_wf m -> forall D x, In x (subtree m D) <-> descrs m x <> None /\ below m x D.
Proof.
  intros W D x. rewrite subtree_In. split.
  - intros (_ & Ex & R). split; [exact Ex|]. eapply reaches_below; exact R.
  - intros (Ex & B). split; [now apply (wf_dom m W)|]. split; [exact Ex|]. apply fuel_ok; [apply (wf_dom m W)|exact B].
Qed.

Lemma consistent_good m : states_consistent m -> forall h, good0 m h.
Proof. intros Hc h s d Es Ed. destruct (Hc h s Es) as (d1 & E1 & V). congruence. Qed.

Theorem conflict_rejected m acts t : body 6 m empty_tx acts = Ok t -> subtree_conflict m t = true ->
  transaction 6 None acts m = (m, 3).
Proof. intros B C. unfold transaction. rewrite B. cbn. now rewrite C. Qed.

Theorem orphan_rejected m acts t : body 6 m empty_tx acts = Ok t -> orphan_create m t = true ->
  transaction 6 None acts m = (m, 3).
Proof. intros B C. unfold transaction. rewrite B. cbn. now rewrite C, orb_true_r. Qed.

Definition touched (m : mdib) (acts : list action) (h : H) : Prop :=
  (exists p, In (ADUpd h p) acts) \/
  (exists c k p sp, In (ADAdd c (Some h) k p sp) acts) \/
  (exists c dc, In (ADDel c) acts /\ descrs m c = Some dc /\ d_parent dc = Some h).

Section DescrTx.
  Variables (m : mdib) (acts : list action).
  Hypothesis Hwf : mdib_wf m.
  Hypothesis Hacts : descr_only acts.

  Definition named (h : H) : Prop :=
    (exists p, In (ADUpd h p) acts) \/ (exists par k p sp, In (ADAdd h par k p sp) acts) \/ In (ADDel h) acts.

  Let m' := fst (transaction 6 None acts m).
  Let code := snd (transaction 6 None acts m).

  (* not committed, or the body's item lists are well-formed, name exactly the calls, and the commit loop ran *)
  Lemma descr_tx_cases :
    (code <> 0 /\ m' = m) \/
    (exists t, code = 0 /\ dtx_ok m acts t /\ (forall a, In a acts -> item_of m t a) /\
       orphan_create m t = false /\ commit_facts m (t_d t) (good0 m) (t_s t) m').
  Proof.
    subst m' code. destruct (transaction_cases 6 None acts m) as [N|(_ & t & B & -> & Hchk)]; [now left|right].
    destruct (Hchk eq_refl) as [C Co]. exists t.
    pose proof (body_dtx_ok m acts acts empty_tx t Hacts (incl_refl _) (empty_dtx_ok m acts) B) as Hok.
    destruct (body_items m acts empty_tx t Hacts B) as (_ & _ & Hit).
    split; [reflexivity|]. split; [exact Hok|]. split; [exact Hit|]. split; [exact Co|]. exact (commit_descr_facts m acts t Hwf Hok C).
  Qed.

  Lemma trig_touched t h : dtx_ok m acts t -> trig m (t_d t) h -> touched m acts h.
  Proof.
    intros Hok (e & He & T). destruct e as [c [d|]]; unfold trig_item in T; cbn [fst snd] in T.
    - destruct T as [Ec Pc]. destruct (proj2 (dx_items _ _ _ Hok c _ He)) as [[_ (p & sp & Hp)]|[Eo _]]; [|contradiction].
      rewrite Pc in Hp. right. left. now exists c, (d_kind d), p, sp.
    - destruct T as (dc & Ec & Pc). right. right. exists c, dc. split; [exact (proj2 (dx_items _ _ _ Hok c _ He))|now split].
  Qed.
  Lemma touched_trig t h : (forall a, In a acts -> item_of m t a) -> plain (t_d t) h ->
    touched m acts h -> trig m (t_d t) h.
  Proof.
    intros Hit G [(p & Hp)|[(c & k & p & sp & Hp)|(c & dc & Hp & Ec & Pc)]]; apply Hit in Hp; cbn [item_of] in Hp.
    - destruct Hp as [(d & Hd) _]. now apply G in Hd.
    - destruct Hp as (Hd & Ec & _). eexists. split; [exact Hd|]. unfold trig_item. cbn [fst snd d_parent]. now split.
    - destruct Hp as (Hd & _). exists (c, None). split; [exact Hd|]. unfold trig_item. cbn [fst snd]. now exists dc.
  Qed.

  Theorem descr_tx_versions : code = 0 -> forall h d0 d', descrs m h = Some d0 -> descrs m' h = Some d' ->
    (touched m acts h /\ d_ver d' = d_ver d0 + 1 /\ d_parent d' = d_parent d0 /\ d_kind d' = d_kind d0 /\
     ((forall p, ~ In (ADUpd h p) acts) -> d_pay d' = d_pay d0)) \/
    (~ touched m acts h /\ d' = d0).
  Proof.
    intros Hc h d0 d' E E'. destruct descr_tx_cases as [[N _]|(t & _ & Hok & Hit & Hnor & F)]; [contradiction|].
    destruct (cf_descr _ _ _ _ _ F h d0 d' E E') as [Hi|[(G & T & ->)|(G & NT & ->)]].
    - left. destruct (dx_items _ _ _ Hok h _ Hi) as [Ok Act]. destruct (ditem_ok_upd _ _ _ _ Ok E) as (Op & Ok' & Ov). cbn [act_of] in Act. destruct Act as [[Eo _]|[_ (p & Hp)]]; [congruence|].
      split; [left; now exists p|]. repeat split; try assumption. intros Hno. exfalso. exact (Hno p Hp).
    - left. split; [exact (trig_touched t h Hok T)|]. cbn. repeat split.
    - right. split; [|reflexivity]. intros Tc. apply NT. exact (touched_trig t h Hit G Tc).
  Qed.

  Theorem descr_tx_frame : forall h, ~ named h -> ~ touched m acts h -> (forall D, In (ADDel D) acts -> ~ below m h D) ->
    descrs m' h = descrs m h /\ states m' h = states m h.
  Proof.
    intros h Nn Nt Nb. destruct descr_tx_cases as [[_ ->]|(t & _ & Hok & Hit & Hnor & F)]; [now split|].
    assert (G : plain (t_d t) h).
    { intros d Hd. apply Nn. destruct (proj2 (dx_items _ _ _ Hok h _ Hd)) as [[_ (p & sp & Hp)]|[_ (p & Hp)]];
        [right; left; now exists (d_parent d), (d_kind d), p, sp|left; now exists p]. }
    assert (NT : ~ trig m (t_d t) h) by (intros T; apply Nt; exact (trig_touched t h Hok T)).
    assert (NR : ~ rem_below m (t_d t) h).
    { intros (D & HD & B). exact (Nb D (proj2 (dx_items _ _ _ Hok D _ HD)) B). }
    exact (cf_frame _ _ _ _ _ F h G NT NR).
  Qed.

  Theorem descr_tx_consistent : states_consistent m -> states_consistent m'.
  Proof.
    intros Hc. destruct descr_tx_cases as [[_ ->]|(t & _ & Hok & Hit & Hnor & F)]; [exact Hc|].
    intros h s Es. exact (cf_state_descr _ _ _ _ _ F h s (consistent_good m Hc h) Es).
  Qed.

  Theorem descr_tx_states :
    (forall h o s', states m h = Some o -> states m' h = Some s' -> s' = o \/ s_ver s' = s_ver o + 1) /\
    (states_consistent m -> forall h d0 d' o, descrs m h = Some d0 -> descrs m' h = Some d' -> d_ver d' <> d_ver d0 ->
       states m h = Some o -> exists s', states m' h = Some s' /\ s_ver s' = s_ver o + 1 /\ s_dver s' = d_ver d').
  Proof.
    destruct descr_tx_cases as [[_ Em]|(t & _ & Hok & Hit & Hnor & F)].
    - rewrite Em. split; [intros h o s' E E'; left; congruence|]. intros _ h d0 d' o E E'. congruence.
    - split; [exact (cf_state_step _ _ _ _ _ F)|]. intros Hc h d0 d' o.
      apply (cf_state_follows _ _ _ _ _ F h d0 d' o (wf_ctx _ Hwf) (consistent_good m Hc h)).
  Qed.

  Theorem descr_tx_deleted : code = 0 -> forall D x, In (ADDel D) acts -> In x (subtree m D) ->
    descrs m' x = None /\ states m' x = None /\
    (forall d0, descrs m x = Some d0 -> sv_d m' x = Some (d_ver d0)) /\
    (forall s, states m x = Some s -> sv_s m' x = Some (s_ver s)) /\
    (forall ch c, cstates m ch = Some c -> c_dh c = x -> cstates m' ch = None /\ sv_c m' ch = Some (c_ver c)).
  Proof.
    intros Hc D x HD Hx. destruct descr_tx_cases as [[N _]|(t & _ & Hok & Hit & Hnor & F)]; [contradiction|].
    apply Hit in HD. cbn [item_of] in HD. destruct (cf_deleted _ _ _ _ _ F D x (proj1 HD) Hx) as (A & B & C & E).
    split; [exact A|]. split; [exact B|]. split; [exact C|]. split; [exact E|].
    intros ch c Ec Ex. exact (cf_cdeleted _ _ _ _ _ F D x ch c (proj1 HD) Hx Ec Ex).
  Qed.

  (* what lies in a removed subtree has no descriptor after a committed transaction (so a descriptor that is there before
     and after does not lie in one) *)
  Theorem descr_tx_survivor : code = 0 -> forall h D, In (ADDel D) acts -> In h (subtree m D) -> descrs m' h = None.
  Proof. intros Hc h D HD Hx. exact (proj1 (descr_tx_deleted Hc D h HD Hx)). Qed.

  (* the added descriptor starts at 0 or continues from the remembered version + 1 ([set_version]); it is one higher only
     if the same transaction also removes a child that named this (so far missing) handle as its parent; its state follows *)
  Lemma descr_tx_created_gen : code = 0 -> forall h par k p sp, In (ADAdd h par k p sp) acts ->
    descrs m h = None /\
    exists d', descrs m' h = Some d' /\ d_parent d' = par /\ d_kind d' = k /\ d_pay d' = p /\
      (d_ver d' = set_version (sv_d m) h 0 \/
       (d_ver d' = set_version (sv_d m) h 0 + 1 /\
        exists c dc, In (ADDel c) acts /\ descrs m c = Some dc /\ d_parent dc = Some h)) /\
      (k <> K_CTX -> exists s, states m' h = Some s /\ s_dver s = d_ver d' /\ s_ver s = set_version (sv_s m) h 0).
  Proof.
    intros Hc h par k p sp Ha. destruct descr_tx_cases as [[N _]|(t & _ & Hok & Hit & Hnor & F)]; [contradiction|].
    apply Hit in Ha. cbn [item_of] in Ha. destruct Ha as (Hi & Eo & Hk). split; [exact Eo|].
    destruct (cf_created _ _ _ _ _ F h _ Hi Eo) as (d' & Ed & Hd & Es). exists d'. split; [exact Ed|].
    assert (Hs : k <> K_CTX -> exists s, states m' h = Some s /\ s_dver s = d_ver d' /\ s_ver s = set_version (sv_s m) h 0).
    { intros Ek. apply Es; [|intros s d _ Ed0; congruence].
      apply alist_has_in in Hk; [|exact Ek]. unfold alist_has in Hk. destruct (alist_get (t_s t) h); discriminate. }
    destruct Hd as [->|[-> (c & dc & Hc1 & Hc2 & Hc3)]]; cbn [bumpd d_parent d_kind d_pay d_ver] in *.
    - repeat split; try reflexivity; [now left|exact Hs].
    - repeat split; try reflexivity; [|exact Hs]. right. split; [reflexivity|].
      exists c, dc. split; [exact (proj2 (dx_items _ _ _ Hok c _ Hc1))|now split].
  Qed.

  (* with every parent existing ([tree_ok]) nothing that is removed can name the new handle as its parent: the added
     descriptor starts at 0 or continues from the remembered version + 1, and so does its state *)
  Theorem descr_tx_created : tree_ok m -> code = 0 -> forall h par k p sp, In (ADAdd h par k p sp) acts ->
    descrs m h = None /\
    descrs m' h = Some (mkDescr par k (set_version (sv_d m) h 0) p) /\
    (k <> K_CTX -> exists s, states m' h = Some s /\ s_dver s = set_version (sv_d m) h 0 /\
                             s_ver s = set_version (sv_s m) h 0).
  Proof.
    intros Ht Hc h par k p sp Ha. destruct (descr_tx_created_gen Hc h par k p sp Ha) as (Eo & d' & Ed & P & K & Y & V & S).
    split; [exact Eo|].
    assert (Ev : d_ver d' = set_version (sv_d m) h 0).
    { destruct V as [V|[_ (c & dc & _ & Ec & Pc)]]; [exact V|]. exfalso. exact (Ht c dc h Ec Pc Eo). }
    split.
    - rewrite Ed. destruct d' as [a b c v]. cbn in *. now subst.
    - intros Ek. destruct (S Ek) as (s & Es & Sd & Sv). exists s. split; [exact Es|]. split; [congruence|exact Sv].
  Qed.

  Theorem descr_tx_tree : tree_ok m -> tree_ok m'.
  Proof.
    intros Ht. destruct descr_tx_cases as [[_ ->]|(t & _ & Hok & Hit & Hnor & F)]; [exact Ht|].
    exact (cf_tree _ _ _ _ _ F Ht (no_orphan m t Hnor)).
  Qed.

  Theorem descr_tx_ev_d : forall h, ev_d m h <= ev_d m' h.
  Proof.
    intros h. destruct descr_tx_cases as [[_ ->]|(t & _ & Hok & Hit & Hnor & F)]; [lia|]. exact (cf_ev_d _ _ _ _ _ F h).
  Qed.

  Theorem descr_tx_wf : mdib_wf m'.
  Proof.
    destruct descr_tx_cases as [[_ ->]|(t & _ & Hok & Hit & Hnor & F)]; [exact Hwf|].
    constructor; [exact (cf_dom _ _ _ _ _ F)|exact (cf_sd _ _ _ _ _ F)|exact (cf_ctx _ _ _ _ _ F)|exact (cf_cdom _ _ _ _ _ F)].
  Qed.
End DescrTx.
Lemma state_tx_ok k m acts : 0 <= k < 5 -> state_only acts -> mdib_wf m ->
  let m' := fst (transaction k None acts m) in
  mdib_wf m' /\ (forall h, ev_d m h <= ev_d m' h).
Proof.
  intros Hk Ho [Wd Wsd Wc Wcd]. cbv zeta.
  destruct (state_tx_cases k m acts Hk Ho) as [->|(t & [_ Hc Hn Hi] & -> & _)]; [split; [now constructor|intros; lia]|].
  destruct (commit_states_spec m t Hn) as [A B C S _ _ _ _ _ NC _]; [rewrite Hc; constructor|]. destruct (NC Hc) as (CS & _ & CD).
  assert (Sd : forall h, states (commit_states m t) h <> None -> states m h <> None).
  { intros h. rewrite S. destruct (alist_get (t_s t) h) as [s|] eqn:G; [|tauto].
    intros _. apply alist_get_some_in in G. destruct (Hi _ _ G) as (o & -> & _). discriminate. }
  split; [|now apply ev_d_same]. constructor.
  - intros h. rewrite A, C. apply Wd.
  - intros h Hs. rewrite A. apply Wsd. now apply Sd.
  - intros h d. rewrite A. intros Ed Ek. destruct (states (commit_states m t) h) eqn:Es; [|reflexivity].
    exfalso. apply (Sd h); [congruence|]. now apply (Wc h d).
  - intros ch. rewrite CS, CD. apply Wcd.
Qed.

Lemma ctx_tx_ok m acts : ctx_only acts -> fresh_ok m acts -> mdib_wf m ->
  let m' := fst (transaction 5 None acts m) in
  mdib_wf m' /\ (states_consistent m -> states_consistent m') /\ (forall h, ev_d m h <= ev_d m' h).
Proof.
  intros Ho Hf [Wd Wsd Wc Wcd]. cbv zeta.
  destruct (ctx_tx_cases m acts Ho Hf) as [->|(t & [_ Hs Hn _] & ->)]; [split; [now constructor|]; split; [tauto|intros; lia]|].
  destruct (commit_states_spec m t) as [A B C _ _ CS _ CD _ _ NS]; [rewrite Hs; constructor|exact Hn|]. destruct (NS Hs) as [S _].
  split; [|split; [|now apply ev_d_same]].
  - constructor.
    + intros h. rewrite A, C. apply Wd.
    + intros h. rewrite A, S. apply Wsd.
    + intros h d. rewrite A, S. apply Wc.
    + intros ch. rewrite CS, CD. destruct (alist_get (t_c t) ch) as [x|] eqn:G; [|left; now apply Wcd].
      intros _. right. exact (alist_get_key _ _ _ G).
  - intros Hc h s. rewrite S, A. apply Hc.
Qed.

(* one transaction of a history: the calls fit the kind of transaction (context handles generated by uuid4 are fresh) *)
Definition txn_ok (m : mdib) (x : txn) : Prop :=
  let '(k, ab, acts) := x in
  match ab with
  | Some _ => True                                                          (* aborted by the application: anything *)
  | None => (0 <= k < 5 /\ state_only acts) \/
            (k = 5 /\ ctx_only acts /\ fresh_ok m acts) \/
            (k = 6 /\ descr_only acts)
  end.
Fixpoint hist_ok (m : mdib) (hist : list txn) : Prop :=
  match hist with
  | [] => True
  | x :: r => txn_ok m x /\ hist_ok (exec1 m x) r
  end.

Lemma exec1_ok m x : mdib_wf m -> txn_ok m x ->
  mdib_wf (exec1 m x) /\ (states_consistent m -> states_consistent (exec1 m x)) /\ (tree_ok m -> tree_ok (exec1 m x)) /\
  (forall h, ev_d m h <= ev_d (exec1 m x) h).
Proof.
  destruct x as [[k ab] acts]. intros Hwf Hx. unfold exec1. cbn [txn_ok] in Hx. destruct ab as [n|].
  - destruct (abort_never_commits k n acts m) as [_ ->]. split; [exact Hwf|]. split; [tauto|]. split; [tauto|intros; lia].
  - destruct Hx as [[Hk Ho]|[(-> & Ho & Hf)|(-> & Ho)]].
    + destruct (state_tx_ok k m acts Hk Ho Hwf) as [W V]. split; [exact W|]. split; [now apply state_tx_consistent|]. split; [|exact V].
      apply tree_ok_same. exact (proj1 (state_tx_frame k m acts Hk Ho)).
    + destruct (ctx_tx_ok m acts Ho Hf Hwf) as (W & C & V). split; [exact W|]. split; [exact C|]. split; [|exact V].
      apply tree_ok_same. exact (proj1 (proj2 (proj2 (ctx_tx_versions m acts Ho Hf)))).
    + split; [now apply descr_tx_wf|]. split; [now apply descr_tx_consistent|]. split; [now apply descr_tx_tree|now apply descr_tx_ev_d].
Qed.

Theorem all_history hist : forall m, mdib_wf m -> hist_ok m hist ->
  mdib_wf (exec m hist) /\
  (states_consistent m -> states_consistent (exec m hist)) /\
  (tree_ok m -> tree_ok (exec m hist)) /\
  (forall h, ev_d m h <= ev_d (exec m hist) h) /\
  (forall h d d', descrs m h = Some d -> descrs (exec m hist) h = Some d' -> d_ver d <= d_ver d').
Proof.
  assert (Main : forall hist m, mdib_wf m -> hist_ok m hist ->
    mdib_wf (exec m hist) /\ (states_consistent m -> states_consistent (exec m hist)) /\
    (tree_ok m -> tree_ok (exec m hist)) /\
    (forall h, ev_d m h <= ev_d (exec m hist) h)).
  { clear hist. induction hist as [|x r IH]; intros m Hwf Hh; cbn [exec fold_left].
    - split; [exact Hwf|]. split; [tauto|]. split; [tauto|intros; lia].
    - destruct Hh as [Hx Hr]. destruct (exec1_ok m x Hwf Hx) as (W & C & T & V).
      destruct (IH (exec1 m x) W Hr) as (W2 & C2 & T2 & V2). unfold exec in *.
      split; [exact W2|]. split; [auto|]. split; [auto|]. intros h. specialize (V h). specialize (V2 h). lia. }
  intros m Hwf Hh. destruct (Main hist m Hwf Hh) as (W & C & T & V). split; [exact W|]. split; [exact C|]. split; [exact T|]. split; [exact V|].
  intros h d d' E E'. specialize (V h). unfold ev_d in V. now rewrite E, E' in V.
Qed.

(* 1 <- 2 <- {3, 4}; handle 5 existed before (saved versions 6 / 2).  One transaction adds 5 below 2, removes 3 and
   updates 4: the parent 2 gets ONE new version, 5 continues from its saved versions, the states follow. *)
Definition ex_m : mdib :=
  mkMdib (fun h => if h =? 1 then Some (mkDescr None K_COMP 0 10)
                   else if h =? 2 then Some (mkDescr (Some 1) K_COMP 3 20)
                   else if h =? 3 then Some (mkDescr (Some 2) K_METRIC 1 30)
                   else if h =? 4 then Some (mkDescr (Some 2) K_METRIC 5 40) else None)
         (fun h => if h =? 1 then Some (mkState 0 2 11) else if h =? 2 then Some (mkState 3 7 21)
                   else if h =? 3 then Some (mkState 1 4 31) else if h =? 4 then Some (mkState 5 0 41) else None)
         (fun _ => None) 10 (fun h => if h =? 5 then Some 6 else None) (fun h => if h =? 5 then Some 2 else None) (fun _ => None)
         [1; 2; 3; 4] [].
Definition ex_acts : list action := [ADAdd 5 (Some 2) K_METRIC 50 51; ADDel 3; ADUpd 4 42].

Ltac case_handles h :=
  repeat match goal with
         | |- context [Z.eqb h ?k] => destruct (Z.eqb_spec h k) as [->|?]
         | H : context [Z.eqb h ?k] |- _ => destruct (Z.eqb_spec h k) as [->|?]
         end.

Lemma ex_wf : mdib_wf ex_m.
Proof.
  constructor.
  - intros h. cbn [descrs ex_m ddom]. case_handles h; cbn [In]; try tauto.
  - intros h. cbn [descrs states ex_m]. case_handles h; try discriminate; tauto.
  - intros h d. cbn [descrs states ex_m]. case_handles h; intros [= <-]; cbn; try discriminate.
  - intros ch. cbn [cstates ex_m]. congruence.
Qed.
Lemma ex_consistent : states_consistent ex_m.
Proof.
  intros h s. cbn [descrs states ex_m]. case_handles h; intros [= <-]; try (eexists; split; [reflexivity|reflexivity]).
Qed.
Lemma ex_descr_only : descr_only ex_acts.
Proof. intros a [<-|[<-|[<-|[]]]]; exact I. Qed.

Example descr_tx_nonvacuous :
  mdib_wf ex_m /\ states_consistent ex_m /\ descr_only ex_acts /\
  let r := transaction 6 None ex_acts ex_m in
  snd r = 0 /\ ver (fst r) = 11 /\
  map (descrs (fst r)) [1; 2; 3; 4; 5] =
    [Some (mkDescr None K_COMP 0 10); Some (mkDescr (Some 1) K_COMP 4 20); None;
     Some (mkDescr (Some 2) K_METRIC 6 42); Some (mkDescr (Some 2) K_METRIC 7 50)] /\
  map (states (fst r)) [1; 2; 3; 4; 5] =
    [Some (mkState 0 2 11); Some (mkState 4 8 21); None; Some (mkState 6 1 41); Some (mkState 7 3 51)] /\
  sv_d (fst r) 3 = Some 1 /\ sv_s (fst r) 3 = Some 4.
Proof.
  split; [exact ex_wf|]. split; [exact ex_consistent|]. split; [exact ex_descr_only|].
  cbv zeta. repeat split; vm_compute; reflexivity.
Qed.

(* 1 <- 2 <- 3, every descriptor with a state *)
Definition w_m : mdib :=
  mkMdib (fun h => if h =? 1 then Some (mkDescr None K_COMP 0 10)
                   else if h =? 2 then Some (mkDescr (Some 1) K_COMP 0 20)
                   else if h =? 3 then Some (mkDescr (Some 2) K_METRIC 0 30) else None)
         (fun h => if h =? 1 then Some (mkState 0 0 11) else if h =? 2 then Some (mkState 0 0 21)
                   else if h =? 3 then Some (mkState 0 0 31) else None)
         (fun _ => None) 0 (fun _ => None) (fun _ => None) (fun _ => None) [1; 2; 3] [].

Lemma w_wf : mdib_wf w_m.
Proof.
  constructor.
  - intros h. cbn [descrs w_m ddom]. case_handles h; cbn [In]; try tauto.
  - intros h. cbn [descrs states w_m]. case_handles h; try discriminate; tauto.
  - intros h d. cbn [descrs states w_m]. case_handles h; intros [= <-]; cbn; try discriminate.
  - intros ch. cbn [cstates w_m]. congruence.
Qed.
Lemma w_consistent : states_consistent w_m.
Proof.
  intros h s. cbn [descrs states w_m]. case_handles h; intros [= <-]; try (eexists; split; [reflexivity|reflexivity]).
Qed.

(* refused with ApiUsageError (code 3), the MDIB is what it was *)
Definition rejected (acts : list action) : Prop :=
  snd (transaction 6 None acts w_m) = 3 /\ fst (transaction 6 None acts w_m) = w_m.
Lemma rejected_intro acts : snd (transaction 6 None acts w_m) = 3 -> rejected acts.
Proof. intros E. split; [exact E|]. apply transaction_not_committed_noop. rewrite E. discriminate. Qed.

(* transactions that would leave states without descriptor (or raise in the middle of the commit) *)
Example add_below_removed_rejected : rejected [ADAdd 4 (Some 2) K_METRIC 40 41; ADDel 2].
Proof. apply rejected_intro. vm_compute. reflexivity. Qed.
Example update_below_removed_rejected : rejected [ADUpd 3 33; ADDel 2].
Proof. apply rejected_intro. vm_compute. reflexivity. Qed.
Example update_after_remove_rejected : rejected [ADDel 2; ADUpd 3 33].
Proof. apply rejected_intro. vm_compute. reflexivity. Qed.

(* a descriptor below a parent that neither exists nor is created in the same transaction (handle 9) *)
Example orphan_add_rejected : rejected [ADAdd 4 (Some 9) K_METRIC 40 41].
Proof. apply rejected_intro. vm_compute. reflexivity. Qed.
(* ... while parent and child may come in one transaction, in either order *)
Example parent_and_child_commit :
  snd (transaction 6 None [ADAdd 4 (Some 9) K_METRIC 40 41; ADAdd 9 (Some 1) K_COMP 90 91] w_m) = 0 /\
  snd (transaction 6 None [ADAdd 9 (Some 1) K_COMP 90 91; ADAdd 4 (Some 9) K_METRIC 40 41] w_m) = 0.
Proof. split; vm_compute; reflexivity. Qed.

Lemma ex_tree : tree_ok ex_m.
Proof.
  intros h d p. cbn [descrs ex_m]. case_handles h; intros [= <-]; cbn; intros [= <-]; discriminate.
Qed.
Lemma w_tree : tree_ok w_m.
Proof.
  intros h d p. cbn [descrs w_m]. case_handles h; intros [= <-]; cbn; intros [= <-]; discriminate.
Qed.

(* a removal nested in another removal is fine (either order): everything is gone, nothing is left behind *)
Example nested_remove_commits :
  let r := transaction 6 None [ADDel 3; ADDel 1] w_m in
  snd r = 0 /\ ver (fst r) = 1 /\ states_consistent (fst r) /\ mdib_wf (fst r) /\
  map (descrs (fst r)) [1; 2; 3] = [None; None; None] /\ map (states (fst r)) [1; 2; 3] = [None; None; None] /\
  map (sv_d (fst r)) [1; 2; 3] = [Some 0; Some 0; Some 0] /\ map (sv_s (fst r)) [1; 2; 3] = [Some 0; Some 0; Some 0].
Proof.
  assert (Ho : descr_only [ADDel 3; ADDel 1]) by (intros a [<-|[<-|[]]]; exact I).
  cbv zeta. split; [vm_compute; reflexivity|]. split; [vm_compute; reflexivity|].
  split; [exact (descr_tx_consistent w_m _ w_wf Ho w_consistent)|]. split; [exact (descr_tx_wf w_m _ w_wf Ho)|].
  repeat split; vm_compute; reflexivity.
Qed.
Example nested_remove_commits_rev :
  let r := transaction 6 None [ADDel 1; ADDel 3] w_m in
  snd r = 0 /\ map (descrs (fst r)) [1; 2; 3] = [None; None; None] /\ map (states (fst r)) [1; 2; 3] = [None; None; None].
Proof. cbv zeta. repeat split; vm_compute; reflexivity. Qed.
