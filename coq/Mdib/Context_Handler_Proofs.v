(* Proofs about context association (C10): the SetContextState handler of the tutorial role provider
   (Mdib/Context.v set_context_state = GenericContextProvider._set_context_state + ContextStateTransaction.write_entity
   + commit), for ARBITRARY proposal lists, and histories of set_location / SetContextState operations.

   Both operations preserve [ctx_inv] and are an [assoc_step] (binding / unbinding versions of the states whose
   association changed); the handler moreover leaves other descriptors alone and uses no handles but existing and
   drawn ones.  Histories: the invariant after every prefix, an [assoc_step] at every step.

   Structure of the handler proof: every proposal works on a private copy [entity_of m dh] of the COMMITTED
   states of its descriptor; [handle_proposal_ok] reads off the handler how the copy after the proposal is built, and
   [copy_ok] derives from its pointwise description the facts [ent_ok] the rest needs.  [write_entities] then writes,
   for every copy of descriptor dh, ALL handles collected for dh: per handle the last writer wins ([wres]), and the last
   copy of a descriptor overwrites everything the earlier copies of that descriptor wrote ([wres_last]).  So
   after the commit the states of a descriptor are those of ONE single-proposal copy (the last) on the written
   handles and the committed ones elsewhere - and every single-proposal copy reports all handles on which it
   differs from the committed states ([eo_frame]): [committed_view]. *)
From Coq Require Import List ZArith Bool.
From SDC Require Import Mdib.Model Mdib.Base Mdib.Context Mdib.Context_Proofs.
Import ListNotations.
Open Scope Z_scope.

(* an associated state is "open": it has no unbinding version (yet) *)
Definition assoc_open (m : mdib) : Prop :=
  forall k c, cstates m k = Some c -> c_assoc c = A_ASSOC -> c_unbind c = None.

Definition ctx_inv (m : mdib) : Prop :=
  NoDup (cdom m) /\
  (forall k c, cstates m k = Some c -> In k (cdom m)) /\
  (forall dh, (length (assoc_states m dh) <= 1)%nat) /\
  assoc_open m.

(* the pairwise form of "at most one associated state per descriptor" *)
Definition uniq_assoc (m : mdib) : Prop :=
  forall k1 k2 c1 c2, cstates m k1 = Some c1 -> cstates m k2 = Some c2 -> c_dh c1 = c_dh c2 ->
    c_assoc c1 = A_ASSOC -> c_assoc c2 = A_ASSOC -> k1 = k2.

Lemma assoc_states_in m dh k :
  In k (assoc_states m dh) <->
  In k (cdom m) /\ exists c, cstates m k = Some c /\ c_dh c = dh /\ c_assoc c = A_ASSOC.
Proof.
  unfold assoc_states. rewrite filter_In. split.
  - intros [Hi Hp]. split; [assumption|]. destruct (cstates m k) as [c|]; [|discriminate].
    apply andb_true_iff in Hp as [A B]. apply Z.eqb_eq in A, B. exists c. repeat split; assumption.
  - intros [Hi (c & -> & A & B)]. split; [assumption|]. rewrite A, B, !Z.eqb_refl. reflexivity.
Qed.

Lemma uniq_assoc_iff m : NoDup (cdom m) -> (forall k c, cstates m k = Some c -> In k (cdom m)) ->
  ((forall dh, (length (assoc_states m dh) <= 1)%nat) <-> uniq_assoc m).
Proof.
  intros Hnd Hcov. split.
  - intros Hl k1 k2 c1 c2 E1 E2 Edh A1 A2.
    assert (I1 : In k1 (assoc_states m (c_dh c1))).
    { apply assoc_states_in. split; [eapply Hcov; eassumption|]. exists c1. repeat split; assumption. }
    assert (I2 : In k2 (assoc_states m (c_dh c1))).
    { apply assoc_states_in. split; [eapply Hcov; eassumption|]. exists c2. repeat split; try assumption. now symmetry. }
    specialize (Hl (c_dh c1)). destruct (assoc_states m (c_dh c1)) as [|x [|y r]].
    + contradiction.
    + destruct I1 as [<-|[]]. destruct I2 as [<-|[]]. reflexivity.
    + cbn [length] in Hl. apply le_S_n in Hl. inversion Hl.
  - intros Hu dh.
    assert (N : NoDup (assoc_states m dh)) by (unfold assoc_states; now apply NoDup_filter).
    assert (P : forall x y, In x (assoc_states m dh) -> In y (assoc_states m dh) -> x = y).
    { intros x y Hx Hy. apply assoc_states_in in Hx as (_ & cx & Ex & Dx & Ax).
      apply assoc_states_in in Hy as (_ & cy & Ey & Dy & Ay). eapply Hu; try eassumption. congruence. }
    destruct (assoc_states m dh) as [|x [|y r]]; cbn [length]; [repeat constructor..|].
    exfalso. inversion N as [|? ? Hx _]; subst. apply Hx. left. symmetry. apply P; [now left|right; now left].
Qed.

Lemma ctx_inv_uniq m : ctx_inv m -> uniq_assoc m.
Proof. intros (A & B & C & _). now apply (uniq_assoc_iff m A B). Qed.

Lemma ctx_inv_intro m : NoDup (cdom m) -> (forall k c, cstates m k = Some c -> In k (cdom m)) ->
  uniq_assoc m -> assoc_open m -> ctx_inv m.
Proof. intros A B C D. repeat split; try assumption. now apply (uniq_assoc_iff m A B). Qed.

Lemma memz_app h l1 l2 : memz h (l1 ++ l2) = memz h l1 || memz h l2.
Proof. apply Base.memz_app. Qed.

Definition hget (l : list (H * list H)) (dh : H) : list H :=
  match alist_get l dh with Some x => x | None => [] end.

Lemma hget_add_handles l dh hs d :
  hget (add_handles l dh hs) d = if Z.eqb d dh then hget l dh ++ hs else hget l d.
Proof.
  unfold hget, add_handles. destruct (alist_get l dh) as [old|] eqn:E.
  - rewrite alist_get_set. destruct (Z.eqb_spec d dh) as [->|_]; reflexivity.
  - rewrite alist_get_app. cbn [alist_get]. destruct (Z.eqb_spec d dh) as [->|_].
    + now rewrite E.
    + destruct (alist_get l d); reflexivity.
Qed.

Definition eget (m : mdib) (dh k : H) : option cstate :=
  match cstates m k with Some c => if Z.eqb (c_dh c) dh then Some c else None | None => None end.

Lemma entity_of_get m dh k : (forall k c, cstates m k = Some c -> In k (cdom m)) ->
  alist_get (entity_of m dh) k = eget m dh k.
Proof.
  intros Hcov. unfold entity_of.
  assert (G : forall l, alist_get (flat_map (fun h => match cstates m h with
                                   | Some c => if Z.eqb (c_dh c) dh then [(h, c)] else []
                                   | None => [] end) l) k = if memz k l then eget m dh k else None).
  { induction l as [|h r IH]; cbn [flat_map]; [reflexivity|]. rewrite alist_get_app, IH, memz_cons. unfold eget.
    destruct (Z.eqb_spec k h) as [->|Hne]; cbn [orb].
    - destruct (cstates m h) as [c|]; [|destruct (memz h r); reflexivity].
      destruct (Z.eqb (c_dh c) dh); cbn [alist_get]; [now rewrite Z.eqb_refl|destruct (memz h r); reflexivity].
    - destruct (cstates m h) as [c|]; [|reflexivity].
      destruct (Z.eqb (c_dh c) dh); cbn [alist_get]; [|reflexivity].
      destruct (Z.eqb_spec k h); [contradiction|reflexivity]. }
  rewrite G. destruct (memz k (cdom m)) eqn:E; [reflexivity|].
  unfold eget. destruct (cstates m k) as [c|] eqn:Ec; [|reflexivity].
  exfalso. apply Hcov in Ec. apply memz_In in Ec. congruence.
Qed.

(* xdisall in words: it skips the ignored handle [ign] and the states it need not [touch] (not associated at all, or
   disassociated with an unbinding version) and makes [dis1] of the others.  dis1 is Context_Proofs.dis_of without
   the StateVersion increment: the copy keeps its version, write_entity increments it later *)
Definition dis1 (v : Z) (c : cstate) : cstate :=
  mkCState (c_dh c) (c_dver c) (c_ver c) A_DIS (c_bind c) (match c_unbind c with None => Some v | u => u end) (c_pay c).
Definition touch (c : cstate) : bool :=
  negb (Z.eqb (c_assoc c) A_NO) &&
  (negb (Z.eqb (c_assoc c) A_DIS) || match c_unbind c with None => true | Some _ => false end).
Definition ign (ig : option H) (k : H) : bool := match ig with Some i => Z.eqb i k | None => false end.

(* one round of the model's fold_right, in the words above *)
Lemma xdisall_cons h c e v ig :
  xdisall ((h, c) :: e) v ig =
  if ign ig h || negb (touch c) then ((h, c) :: fst (xdisall e v ig), snd (xdisall e v ig))
  else ((h, dis1 v c) :: fst (xdisall e v ig), h :: snd (xdisall e v ig)).
Proof.
  unfold xdisall at 1. cbn [fold_right]. fold (xdisall e v ig). destruct (xdisall e v ig) as [e' hs].
  cbn [fst snd]. unfold ign, touch, dis1.
  destruct (match ig with Some i => i =? h | None => false end); cbn [orb]; [reflexivity|].
  destruct (c_assoc c =? A_NO); cbn [negb andb orb]; [reflexivity|].
  destruct (negb (c_assoc c =? A_DIS) || match c_unbind c with None => true | Some _ => false end); reflexivity.
Qed.

(* disassociate_all is only called when the proposal associates; [xd true] is xdisall itself, so the three lemmas
   below say at b = true what xdisall does *)
Definition xd (b : bool) (e : entity) (v : Z) (ig : option H) : entity * list H :=
  if b then xdisall e v ig else (e, []).

Lemma xd_get b e v ig k :
  alist_get (fst (xd b e v ig)) k =
  match alist_get e k with
  | Some c => Some (if b && (negb (ign ig k) && touch c) then dis1 v c else c)
  | None => None
  end.
Proof.
  destruct b; cbn [xd fst andb]; [|now destruct (alist_get e k)].
  induction e as [|[h c] r IH]; [reflexivity|]. rewrite xdisall_cons.
  destruct (ign ig h || negb (touch c)) eqn:E; cbn [fst alist_get]; rewrite IH;
    destruct (Z.eqb_spec k h) as [->|_]; try reflexivity.
  - apply orb_true_iff in E as [E|E]; [now rewrite E|].
    apply negb_true_iff in E. rewrite E, andb_false_r. reflexivity.
  - apply orb_false_iff in E as [E1 E2]. apply negb_false_iff in E2. now rewrite E1, E2.
Qed.

Lemma xd_handles b e v ig k c :
  alist_get e k = Some c -> ign ig k = false -> b && touch c = true -> In k (snd (xd b e v ig)).
Proof.
  destruct b; cbn [xd andb]; [|discriminate].
  induction e as [|[h c0] r IH]; cbn [alist_get]; [discriminate|]. rewrite xdisall_cons.
  destruct (Z.eqb_spec k h) as [->|Hne].
  - intros [= ->] E1 E2. rewrite E1, E2. cbn. now left.
  - intros G E1 E2. specialize (IH G E1 E2).
    destruct (ign ig h || negb (touch c0)); cbn [snd]; [assumption|now right].
Qed.

Lemma xd_handles_in b e v ig k : In k (snd (xd b e v ig)) -> alist_get e k <> None.
Proof.
  destruct b; cbn [xd]; [|intros []].
  induction e as [|[h c0] r IH]; [intros []|]. rewrite xdisall_cons. cbn [alist_get].
  destruct (ign ig h || negb (touch c0)); cbn [snd].
  - intros Hi. destruct (Z.eqb k h); [discriminate|now apply IH].
  - intros [->|Hi]; [rewrite Z.eqb_refl; discriminate|]. destruct (Z.eqb k h); [discriminate|now apply IH].
Qed.

Lemma st_step_dis1 v c : (c_assoc c = A_ASSOC -> c_unbind c = None) -> st_step v (Some c) (dis1 v c).
Proof. intros Ho. now apply (st_step_ext v _ (dis_of v c)), st_step_dis_of. Qed.

(* the state an accepted proposal (association a, payload pay) makes of the committed state old *)
Definition upd_state (v : Z) (old : cstate) (a pay : Z) : cstate :=
  let leaving := Z.eqb (c_assoc old) A_ASSOC && negb (Z.eqb a A_ASSOC) in
  let entering := negb (Z.eqb (c_assoc old) A_ASSOC) && Z.eqb a A_ASSOC in
  mkCState (c_dh old) (c_dver old) (c_ver old) (if leaving then A_DIS else a)
           (if entering then Some v else c_bind old)
           (if leaving then Some v else if entering then None else c_unbind old) pay.

Lemma upd_state_step v old a pay :
  (c_assoc old = A_ASSOC -> c_unbind old = None) -> st_step v (Some old) (upd_state v old a pay).
Proof.
  intros Ho. unfold st_step, upd_state. cbn [c_assoc c_bind c_unbind].
  destruct (Z.eqb_spec (c_assoc old) A_ASSOC) as [Ea|Na], (Z.eqb_spec a A_ASSOC) as [Ep|Np]; cbn [andb negb].
  - split; [intros _; exact (Ho Ea)|]. split; [intros c _ _ Hn|intros _ Hm]; contradiction.
  - pose proof dis_not_assoc. repeat split; intros; try contradiction; reflexivity.
  - split; [reflexivity|]. split; [intros c [= <-] Ea; contradiction|reflexivity].
  - split; [intros Ea; contradiction|]. split; [intros c [= <-] Ea; contradiction|intros Ea; contradiction].
Qed.

(* it is associated only if the proposal newly associates it or it was associated already *)
Lemma upd_state_assoc v old a pay : c_assoc (upd_state v old a pay) = A_ASSOC ->
  negb (Z.eqb (c_assoc old) A_ASSOC) && Z.eqb a A_ASSOC = true \/ c_assoc old = A_ASSOC.
Proof.
  unfold upd_state. cbn [c_assoc].
  destruct (Z.eqb_spec (c_assoc old) A_ASSOC) as [Ea|Na], (Z.eqb_spec a A_ASSOC) as [Ep|Np]; cbn [andb negb]; intros Hx;
    [now right|now apply dis_not_assoc in Hx|now left|contradiction].
Qed.

Lemma eget_some m dh k c : eget m dh k = Some c <-> cstates m k = Some c /\ c_dh c = dh.
Proof.
  unfold eget. destruct (cstates m k) as [c0|]; [|split; [discriminate|intros [? _]; discriminate]].
  destruct (Z.eqb_spec (c_dh c0) dh) as [E|N].
  - split; [intros [= ->]; now split|intros [[= ->] _]; reflexivity].
  - split; [discriminate|intros [[= ->] E]; contradiction].
Qed.

Record ent_ok (m : mdib) (d : H) (e : entity) (hs : list H) : Prop := {
  eo_dh : forall k c, alist_get e k = Some c -> c_dh c = d;
  eo_uniq : forall k1 k2 c1 c2, alist_get e k1 = Some c1 -> alist_get e k2 = Some c2 ->
            c_assoc c1 = A_ASSOC -> c_assoc c2 = A_ASSOC -> k1 = k2;
  (* every committed state of the descriptor is in the copy, and is either unchanged or reported as modified *)
  eo_frame : forall k c, cstates m k = Some c -> c_dh c = d ->
             exists c', alist_get e k = Some c' /\ (c' = c \/ In k hs);
  eo_step : forall k c', alist_get e k = Some c' -> st_step (ver m + 1) (cstates m k) c'
}.

Lemma ent_ok_mono m d e hs hs' : (forall k, In k hs -> In k hs') -> ent_ok m d e hs -> ent_ok m d e hs'.
Proof.
  intros Hi [A B C D]. constructor; try assumption.
  intros k c E1 E2. destruct (C k c E1 E2) as (c' & G & [Heq|Hk]); exists c'; split; auto.
Qed.

Lemma touch_assoc c : c_assoc c = A_ASSOC -> touch c = true.
Proof. intros E. unfold touch. rewrite E. reflexivity. Qed.

(* handle k is free for descriptor d: unused, or a committed state of d *)
Definition own (m : mdib) (d k : H) : Prop := match cstates m k with Some c => c_dh c = d | None => True end.

(* the copy e' a proposal for handle h leaves: [xd] of a copy e1 that agrees with the committed states off h, then
   cx at h.  If cx belongs to the descriptor, is a step of the committed h, and is associated only when everything
   else was disassociated or the committed h was associated already, then e' is in order, and the handles reported
   with it are h and committed states of the descriptor *)
Lemma copy_ok m dh b e1 ig e' h cx :
  uniq_assoc m -> assoc_open m ->
  let X := xd b e1 (ver m + 1) ig in
  (forall k, k <> h -> alist_get e1 k = eget m dh k /\ ign ig k = false) ->
  (forall k, alist_get e' k = if Z.eqb k h then Some cx else alist_get (fst X) k) ->
  own m dh h -> c_dh cx = dh ->
  (c_assoc cx = A_ASSOC -> b = true \/ exists old, cstates m h = Some old /\ c_assoc old = A_ASSOC) ->
  st_step (ver m + 1) (cstates m h) cx ->
  ent_ok m dh e' (snd X ++ [h]) /\
  (forall k, In k (snd X ++ [h]) -> own m dh k /\ (k = h \/ cstates m k <> None)).
Proof.
  intros Hu Hopen X G E' Hown Hdh Hun Hst.
  assert (Gh : alist_get e' h = Some cx) by (now rewrite E', Z.eqb_refl).
  (* off h, the copy is the committed table with, if [b], the states disassociate_all touches disassociated *)
  assert (Go : forall k, k <> h -> alist_get e' k = match eget m dh k with
                                                     | Some c => Some (if b && touch c then dis1 (ver m + 1) c else c)
                                                     | None => None
                                                     end).
  { intros k Hne. rewrite E'. destruct (Z.eqb_spec k h); [contradiction|]. subst X. rewrite xd_get.
    destruct (G k Hne) as [-> ->]. reflexivity. }
  assert (O : forall k c', k <> h -> alist_get e' k = Some c' ->
              exists c, cstates m k = Some c /\ c_dh c = dh /\
                        c' = (if b && touch c then dis1 (ver m + 1) c else c)).
  { intros k c' Hne E. rewrite (Go k Hne) in E. destruct (eget m dh k) as [c|] eqn:Eg; [|discriminate].
    injection E as <-. apply eget_some in Eg as [E1 E2]. now exists c. }
  (* an associated state of the copy is h, or a committed state of the descriptor (then nothing was disassociated);
     if it is h, either everything else was disassociated or the committed h was associated *)
  assert (OA : forall k c', alist_get e' k = Some c' -> c_assoc c' = A_ASSOC ->
               (k = h /\ b = true) \/ (cstates m k = Some c' /\ c_dh c' = dh /\ b = false) \/
               (k = h /\ exists old, cstates m h = Some old /\ c_assoc old = A_ASSOC /\ c_dh old = dh)).
  { intros k c' E Ea. destruct (Z.eqb_spec k h) as [->|Hne].
    - rewrite Gh in E. injection E as <-. destruct (Hun Ea) as [?|(old & Eo & Ao)]; [now left|right; right].
      split; [reflexivity|]. exists old. unfold own in Hown. rewrite Eo in Hown. now repeat split.
    - right; left. destruct (O k c' Hne E) as (c & E1 & E2 & ->).
      destruct (b && touch c) eqn:T; [now apply dis_not_assoc in Ea|].
      repeat split; try assumption. now rewrite (touch_assoc c Ea), andb_true_r in T. }
  split; [constructor|].
  - intros k c E. destruct (Z.eqb_spec k h) as [->|Hne]; [congruence|].
    destruct (O k c Hne E) as (c0 & _ & E2 & ->). now destruct (b && touch c0).
  - (* two associated states: both committed and associated there, up to the one case of h proposed over an
       associated committed h *)
    intros k1 k2 c1 c2 E1 E2 A1 A2.
    destruct (OA k1 c1 E1 A1) as [[-> D1]|[(M1 & Dh1 & D1)|(-> & o1 & M1 & Ao1 & Dh1)]],
             (OA k2 c2 E2 A2) as [[-> D2]|[(M2 & Dh2 & D2)|(-> & o2 & M2 & Ao2 & Dh2)]];
      try reflexivity; try congruence; eapply Hu; try eassumption; congruence.
  - intros k c E Ed. destruct (Z.eqb_spec k h) as [->|Hne].
    { exists cx. split; [exact Gh|right]. apply in_or_app. right. now left. }
    assert (Eg : eget m dh k = Some c) by (apply eget_some; now split).
    rewrite (Go k Hne), Eg. eexists. split; [reflexivity|]. destruct (b && touch c) eqn:T; [right|now left].
    apply in_or_app. left. destruct (G k Hne) as [Gk Ik]. apply (xd_handles _ _ _ _ k c); [now rewrite Gk|assumption..].
  - intros k c' E. destruct (Z.eqb_spec k h) as [->|Hne]; [congruence|].
    destruct (O k c' Hne E) as (c & E0 & _ & ->). rewrite E0.
    destruct (b && touch c); [apply st_step_dis1|apply st_step_same]; exact (Hopen k c E0).
  - intros k Hi. destruct (Z.eqb_spec k h) as [->|Hne]; [split; [exact Hown|now left]|].
    apply in_app_or in Hi as [Hi|[<-|[]]]; [|contradiction]. apply xd_handles_in in Hi. rewrite (proj1 (G k Hne)) in Hi.
    destruct (eget m dh k) as [c|] eqn:Eg; [|contradiction]. apply eget_some in Eg as [Eg Ed].
    unfold own. rewrite Eg. split; [exact Ed|right; discriminate].
Qed.

(* every accepted proposal appends one copy and reports handles for its descriptor only *)
Lemma handle_proposal_handles m st p st' : handle_proposal m st p = Some st' ->
  exists hs, hs_handles st' = add_handles (hs_handles st) (pr_dh p) hs.
Proof.
  unfold handle_proposal. destruct (pr_handle p) as [h|].
  - destruct (alist_get _ h) as [old|]; [|discriminate].
    destruct (negb (c_assoc old =? A_ASSOC) && (pr_assoc p =? A_ASSOC)); [destruct (xdisall _ _ _)|];
      intros [= <-]; now eexists.
  - destruct (hs_fresh st) as [|h r]; [discriminate|].
    destruct (pr_assoc p =? A_ASSOC); [destruct (xdisall _ _ _)|]; intros [= <-]; now eexists.
Qed.

Lemma handle_proposal_ok m st p st' :
  (forall k c, cstates m k = Some c -> In k (cdom m)) -> uniq_assoc m -> assoc_open m ->
  (forall h, In h (hs_fresh st) -> ~ In h (cdom m)) ->
  handle_proposal m st p = Some st' ->
  exists e hs h,
    hs_ents st' = hs_ents st ++ [(pr_dh p, e)] /\
    hs_handles st' = add_handles (hs_handles st) (pr_dh p) hs /\
    (forall h0, In h0 (hs_fresh st') -> In h0 (hs_fresh st)) /\
    (ent_ok m (pr_dh p) e hs /\ forall k, In k hs -> own m (pr_dh p) k /\ (k = h \/ cstates m k <> None)) /\
    (In h (hs_fresh st) \/ In h (cdom m)).
Proof.
  intros Hcov Hu Hopen Hfr. unfold handle_proposal. set (v := ver m + 1). set (dh := pr_dh p).
  destruct (pr_handle p) as [h|].
  - (* update of an existing state *)
    rewrite entity_of_get by assumption. destruct (eget m dh h) as [old|] eqn:Eold; [|discriminate].
    apply eget_some in Eold as [Eold Edh].
    set (entering := negb (c_assoc old =? A_ASSOC) && (pr_assoc p =? A_ASSOC)).
    set (old1 := mkCState (c_dh old) _ _ _ _ _ _). set (e1 := alist_set (entity_of m dh) h old1).
    change (if entering then xdisall e1 v (Some h) else (e1, [])) with (xd entering e1 v (Some h)).
    assert (G1 : forall k, alist_get e1 k = if Z.eqb k h then Some old1 else eget m dh k)
      by (intros k; subst e1; now rewrite alist_get_set, entity_of_get).
    pose proof (copy_ok m dh entering e1 (Some h)) as D. cbv zeta in D. fold v in D.
    assert (Gh : alist_get (fst (xd entering e1 v (Some h))) h = Some old1)
      by (rewrite xd_get, G1; cbn [ign]; now rewrite !Z.eqb_refl, andb_false_r).
    destruct (xd entering e1 v (Some h)) as [e2 hs2]. cbn [fst snd] in D, Gh.
    rewrite Gh. intros [= <-]. cbn [hs_ents hs_handles hs_fresh].
    do 2 eexists. exists h.
    split; [reflexivity|]. split; [reflexivity|]. split; [tauto|]. split; [|right; now apply (Hcov h old)].
    apply (D _ h (upd_state v old (pr_assoc p) (pr_pay p)) Hu Hopen).
    + intros k Hne. rewrite G1. cbn [ign]. rewrite (Z.eqb_sym h k). now destruct (Z.eqb_spec k h).
    + intros k. apply alist_get_set.
    + unfold own. now rewrite Eold.
    + exact Edh.
    + intros Hx. apply upd_state_assoc in Hx as [Hx|Hx]; [now left|right]. now exists old.
    + rewrite Eold. apply upd_state_step, (Hopen h old Eold).
  - (* a new state *)
    destruct (hs_fresh st) as [|h fresh'] eqn:Efr; [discriminate|].
    assert (Hnone : cstates m h = None) by (apply unused_none; [assumption|apply Hfr; now left]).
    set (dis := pr_assoc p =? A_ASSOC).
    change (if dis then xdisall (entity_of m dh) v None else (entity_of m dh, []))
      with (xd dis (entity_of m dh) v None).
    pose proof (copy_ok m dh dis (entity_of m dh) None) as D. cbv zeta in D. fold v in D.
    assert (Gh : alist_get (fst (xd dis (entity_of m dh) v None)) h = None)
      by (rewrite xd_get, entity_of_get by assumption; unfold eget; now rewrite Hnone).
    destruct (xd dis (entity_of m dh) v None) as [e1 hs1]. cbn [fst snd] in D, Gh.
    intros [= <-]. cbn [hs_ents hs_handles hs_fresh].
    set (cx := mkCState dh _ 0 (pr_assoc p) (if dis then Some v else None) None (pr_pay p)).
    do 2 eexists. exists h.
    split; [reflexivity|]. split; [reflexivity|]. split; [intros h0 Hi; now right|]. split; [|left; now left].
    apply (D _ h cx Hu Hopen).
    + intros k _. split; [now apply entity_of_get|reflexivity].
    + intros k. rewrite alist_get_app. cbn [alist_get]. destruct (Z.eqb_spec k h) as [->|_]; [now rewrite Gh|].
      now destruct (alist_get e1 k).
    + unfold own. now rewrite Hnone.
    + reflexivity.
    + intros Ea. left. subst dis. cbn [c_assoc cx] in Ea. now rewrite Ea.
    + rewrite Hnone. apply st_step_new; [reflexivity|]. intros Ea. subst dis. cbn [c_assoc c_bind cx] in *. now rewrite Ea.
Qed.

(* F = the uuid4 handles the operation may draw *)
Record hinv (m : mdib) (F : list H) (st : hstate) : Prop := {
  hi_ents : forall d e, In (d, e) (hs_ents st) -> ent_ok m d e (hget (hs_handles st) d);
  hi_hs : forall d k, In k (hget (hs_handles st) d) -> own m d k /\ (In k (cdom m) \/ In k F);
  hi_fresh : forall h, In h (hs_fresh st) -> In h F
}.

Lemma handle_proposal_hinv m F st p st' :
  (forall k c, cstates m k = Some c -> In k (cdom m)) -> uniq_assoc m -> assoc_open m ->
  (forall h, In h F -> ~ In h (cdom m)) ->
  hinv m F st -> handle_proposal m st p = Some st' -> hinv m F st'.
Proof.
  intros Hcov Hu Hopen HF [He Hs Hf] P.
  destruct (handle_proposal_ok m st p st' Hcov Hu Hopen (fun h0 Hi => HF h0 (Hf h0 Hi)) P)
    as (e & hs & h & Ee & Eh & Hfr & [Hok Hhs] & Dh).
  constructor; rewrite ?Ee, ?Eh.
  - intros d e0 Hi. rewrite hget_add_handles. apply in_app_or in Hi as [Hi|[[= <- <-]|[]]].
    + destruct (Z.eqb_spec d (pr_dh p)) as [->|_]; [|now apply He].
      eapply ent_ok_mono; [|apply He; eassumption]. intros k Hk. apply in_or_app. now left.
    + rewrite Z.eqb_refl. eapply ent_ok_mono; [|eassumption]. intros k Hk. apply in_or_app. now right.
  - intros d k. rewrite hget_add_handles. destruct (Z.eqb_spec d (pr_dh p)) as [->|_]; [|apply Hs].
    intros Hi. apply in_app_or in Hi as [Hi|Hi]; [now apply Hs|]. destruct (Hhs k Hi) as [Ow Hk]. split; [exact Ow|].
    destruct Hk as [->|Hn]; [destruct Dh as [Dh|Dh]; [right; now apply Hf|now left]|].
    left. destruct (cstates m k) as [c|] eqn:Ec; [now apply (Hcov k c)|contradiction].
  - intros h0 Hi. apply Hf. now apply Hfr.
Qed.

Lemma handle_proposals_hinv m F :
  (forall k c, cstates m k = Some c -> In k (cdom m)) -> uniq_assoc m -> assoc_open m ->
  (forall h, In h F -> ~ In h (cdom m)) ->
  forall ps st st', hinv m F st -> handle_proposals m st ps = Some st' -> hinv m F st'.
Proof.
  intros Hcov Hu Hopen HF. induction ps as [|p r IH]; intros st st' Hi; cbn [handle_proposals]; [now intros [= <-]|].
  destruct (handle_proposal m st p) as [st1|] eqn:E; [|discriminate].
  apply IH. eapply handle_proposal_hinv; eassumption.
Qed.

Lemma hinv_init m fresh : hinv m fresh (mkHS [] [] fresh).
Proof. constructor; cbn; [intros ? ? []|intros ? ? []|tauto]. Qed.

(* descriptors for which nothing is proposed collect no handles *)
Lemma handle_proposals_handles m : forall ps st st', handle_proposals m st ps = Some st' ->
  forall d, (forall p, In p ps -> pr_dh p <> d) -> hget (hs_handles st') d = hget (hs_handles st) d.
Proof.
  induction ps as [|p r IH]; intros st st'; cbn [handle_proposals]; [now intros [= <-]|].
  destruct (handle_proposal m st p) as [st1|] eqn:P; [|discriminate]. apply handle_proposal_handles in P as (hs & P).
  intros E d Hd. rewrite (IH _ _ E d) by (intros q Hq; apply Hd; now right). rewrite P, hget_add_handles.
  destruct (Z.eqb_spec d (pr_dh p)) as [->|_]; [|reflexivity]. now elim (Hd p (or_introl eq_refl)).
Qed.

(* what write_entity puts into the transaction for handle k (None = KeyError) *)
Definition wval (m : mdib) (e : entity) (k : H) : option (option cstate) :=
  match alist_get e k, cstates m k with
  | None, None => None
  | None, Some _ => Some None
  | Some c, None =>
      Some (Some (mkCState (c_dh c) (match descrs m (c_dh c) with Some d => d_ver d | None => c_dver c end)
                           (set_version (sv_c m) k 0) (c_assoc c) (c_bind c) (c_unbind c) (c_pay c)))
  | Some c, Some o =>
      Some (Some (mkCState (c_dh c) (c_dver c) (c_ver o + 1) (c_assoc c) (c_bind c) (c_unbind c) (c_pay c)))
  end.

Lemma wval_some m e k c' : wval m e k = Some (Some c') ->
  exists c, alist_get e k = Some c /\ c_dh c' = c_dh c /\ c_assoc c' = c_assoc c /\
            c_bind c' = c_bind c /\ c_unbind c' = c_unbind c.
Proof.
  unfold wval. destruct (alist_get e k) as [c|], (cstates m k) as [o|]; try discriminate;
    intros [= <-]; exists c; repeat split.
Qed.

Lemma write_entity_cons m t e h r :
  write_entity m t e (h :: r) =
  match wval m e h with
  | Some x => write_entity m (mkTx (t_d t) (t_s t) (alist_set (t_c t) h x)) e r
  | None => None
  end.
Proof. cbn [write_entity]. unfold wval. destruct (alist_get e h), (cstates m h); reflexivity. Qed.

Lemma write_entity_spec m e : forall hs t t', write_entity m t e hs = Some t' ->
  t_s t' = t_s t /\ (NoDup (map fst (t_c t)) -> NoDup (map fst (t_c t'))) /\
  (forall k, In k hs -> wval m e k <> None) /\
  (forall k, alist_get (t_c t') k = if memz k hs then wval m e k else alist_get (t_c t) k).
Proof.
  induction hs as [|h r IH]; intros t t'.
  - cbn [write_entity]. intros [= <-]. repeat split; tauto.
  - rewrite write_entity_cons. destruct (wval m e h) as [x|] eqn:W; [|discriminate]. intros E.
    destruct (IH _ _ E) as (A & B & C & D). cbn [t_s t_c] in *. repeat split.
    + exact A.
    + intros Hn. apply B, (alist_set_nodup _ h x Hn).
    + intros k [<-|Hi]; [congruence|now apply C].
    + intros k. rewrite D, memz_cons.
      destruct (memz k r); [now rewrite orb_true_r|]. rewrite orb_false_r, alist_get_set.
      destruct (Z.eqb_spec k h) as [->|_]; [now rewrite W|reflexivity].
Qed.

(* the value the transaction holds for handle k after write_entities: per handle the last writer wins *)
Fixpoint wres (m : mdib) (handles : list (H * list H)) (k : H) (ents : list (H * entity))
              (a : option (option cstate)) : option (option cstate) :=
  match ents with
  | [] => a
  | (d, e) :: r => wres m handles k r (if memz k (hget handles d) then wval m e k else a)
  end.

Lemma write_entities_spec m handles : forall ents t t', write_entities m t ents handles = Some t' ->
  t_s t' = t_s t /\ (NoDup (map fst (t_c t)) -> NoDup (map fst (t_c t'))) /\
  (forall d e k, In (d, e) ents -> In k (hget handles d) -> wval m e k <> None) /\
  (forall k, alist_get (t_c t') k = wres m handles k ents (alist_get (t_c t) k)).
Proof.
  induction ents as [|[d e] r IH]; intros t t'; cbn [write_entities].
  - intros [= <-]. repeat split; tauto.
  - fold (hget handles d). destruct (write_entity m t e (hget handles d)) as [t1|] eqn:W; [|discriminate]. intros E.
    destruct (write_entity_spec _ _ _ _ _ W) as (A1 & B1 & C1 & D1).
    destruct (IH _ _ E) as (A & B & C & D). repeat split.
    + congruence.
    + intros Hn. now apply B, B1.
    + intros d0 e0 k [[= <- <-]|Hi] Hk; [now apply C1|eapply C; eassumption].
    + intros k. rewrite D. cbn [wres]. now rewrite D1.
Qed.

Fixpoint last_ent (dh : H) (ents : list (H * entity)) : option entity :=
  match ents with
  | [] => None
  | (d, e) :: r => match last_ent dh r with
                   | Some e' => Some e'
                   | None => if Z.eqb d dh then Some e else None
                   end
  end.

Lemma last_ent_in dh ents e : last_ent dh ents = Some e -> In (dh, e) ents.
Proof.
  induction ents as [|[d e0] r IH]; cbn [last_ent]; [discriminate|].
  destruct (last_ent dh r) as [e'|].
  - intros [= <-]. right. now apply IH.
  - destruct (Z.eqb_spec d dh) as [->|_]; [|discriminate]. intros [= <-]. now left.
Qed.

Section Wres.
  Variables (m : mdib) (handles : list (H * list H)).

  (* a value that is not the initial one was written by someone *)
  Lemma wres_writer k : forall ents a x, wres m handles k ents a = Some x ->
    a = Some x \/ exists d e, In (d, e) ents /\ In k (hget handles d) /\ wval m e k = Some x.
  Proof.
    induction ents as [|[d e] r IH]; intros a x; cbn [wres]; [now left|].
    intros E. destruct (IH _ _ E) as [E1|(d0 & e0 & Hi & Hk & W)].
    - destruct (memz k (hget handles d)) eqn:M; [|now left].
      right. exists d, e. repeat split; [now left|now apply memz_In|exact E1].
    - right. exists d0, e0. repeat split; [now right|assumption|assumption].
  Qed.

  (* if somebody writes k (successfully), the transaction holds a value for k *)
  Lemma wres_written k : forall ents a,
    (forall d e, In (d, e) ents -> In k (hget handles d) -> wval m e k <> None) ->
    (a <> None \/ exists d e, In (d, e) ents /\ In k (hget handles d)) ->
    wres m handles k ents a <> None.
  Proof.
    induction ents as [|[d e] r IH]; intros a Hok Hw; cbn [wres].
    - destruct Hw as [Hw|(d & e & [] & _)]. exact Hw.
    - apply IH; [intros d0 e0 Hi; apply Hok; now right|].
      destruct (memz k (hget handles d)) eqn:M.
      + left. apply (Hok d e); [now left|now apply memz_In].
      + destruct Hw as [Hw|(d0 & e0 & [[= <- <-]|Hi] & Hk)]; [now left| |right; now exists d0, e0].
        apply memz_In in Hk. congruence.
  Qed.

  (* the last copy of descriptor dh overwrites whatever was written for a handle collected for dh; a later
     copy of another descriptor could only write a state of that other descriptor *)
  Lemma wres_last k c : In k (hget handles (c_dh c)) ->
    forall ents a,
    (forall d e k' c', In (d, e) ents -> alist_get e k' = Some c' -> c_dh c' = d) ->
    wres m handles k ents a = Some (Some c) ->
    match last_ent (c_dh c) ents with Some e => wval m e k = Some (Some c) | None => a = Some (Some c) end.
  Proof.
    intros Hk. induction ents as [|[d e] r IH]; intros a Hdh; cbn [wres last_ent]; [tauto|].
    intros E. specialize (IH _ (fun d0 e0 k' c' Hi => Hdh d0 e0 k' c' (or_intror Hi)) E).
    destruct (last_ent (c_dh c) r) as [e'|]; [exact IH|].
    destruct (Z.eqb_spec d (c_dh c)) as [->|Hne].
    - apply memz_In in Hk. now rewrite Hk in IH.
    - destruct (memz k (hget handles d)); [|exact IH]. exfalso.
      apply wval_some in IH as (c0 & E0 & Ed & _). apply (Hdh d e k c0 (or_introl eq_refl)) in E0. congruence.
  Qed.
End Wres.

Section Handler.
  Variables (m : mdib) (fresh : list H) (ps : list proposal).
  Hypothesis Hinv : ctx_inv m.
  Hypothesis Hfresh : forall h, In h fresh -> ~ In h (cdom m).

  Let m' := fst (set_context_state m fresh ps).

  Let Hnd : NoDup (cdom m) := proj1 Hinv.
  Let Hcov : forall k c, cstates m k = Some c -> In k (cdom m) := proj1 (proj2 Hinv).
  Let Hu : uniq_assoc m := ctx_inv_uniq m Hinv.
  Let Hopen : assoc_open m := proj2 (proj2 (proj2 Hinv)).

  (* the context table after the operation: per handle, the value of the last writer, else the old state *)
  Lemma handler_cases :
    m' = m \/
    exists st, hinv m fresh st /\ handle_proposals m (mkHS [] [] fresh) ps = Some st /\
      (forall d e k, In (d, e) (hs_ents st) -> In k (hget (hs_handles st) d) -> wval m e k <> None) /\
      (forall k, cstates m' k = match wres m (hs_handles st) k (hs_ents st) None with
                                | Some x => x
                                | None => cstates m k
                                end) /\
      NoDup (cdom m') /\ (forall k c, cstates m' k = Some c -> In k (cdom m')) /\
      (forall k, In k (cdom m') -> In k (cdom m) \/ In k fresh).
  Proof.
    subst m'. unfold set_context_state. destruct (existsb _ ps); [now left|].
    destruct (handle_proposals m (mkHS [] [] fresh) ps) as [st|] eqn:HP; [|now left].
    destruct (write_entities m empty_tx (hs_ents st) (hs_handles st)) as [t|] eqn:W; [|now left].
    right. exists st. cbn [fst].
    pose proof (handle_proposals_hinv m fresh Hcov Hu Hopen Hfresh ps _ _ (hinv_init m fresh) HP) as HI.
    destruct (write_entities_spec _ _ _ _ _ W) as (A & B & C & D). cbn [empty_tx t_s t_c map alist_get] in *.
    assert (OV : overlaid m t (commit_states m t))
      by (apply commit_states_spec; [rewrite A; constructor|apply B; constructor]).
    split; [exact HI|]. split; [reflexivity|]. split; [exact C|]. split; [|split; [|split]].
    - intros k. now rewrite (ov_cstates _ _ _ OV), D.
    - now apply (ov_cnodup _ _ _ OV).
    - now apply (overlaid_cover _ _ _ OV).
    - intros k Hk. apply (ov_cdom _ _ _ OV) in Hk as [Hk|Hk]; [now left|].
      destruct (wres m (hs_handles st) k (hs_ents st) None) as [y|] eqn:Rk.
      + destruct (wres_writer _ _ _ _ _ _ Rk) as [?|(d & e0 & _ & Hk0 & _)]; [discriminate|].
        exact (proj2 (hi_hs _ _ _ HI d k Hk0)).
      + rewrite <- D in Rk. now apply alist_get_none_notin in Rk.
  Qed.

  Section Committed.
    Variable st : hstate.
    Hypothesis HI : hinv m fresh st.
    Hypothesis Hw : forall d e k, In (d, e) (hs_ents st) -> In k (hget (hs_handles st) d) -> wval m e k <> None.
    Let R k := wres m (hs_handles st) k (hs_ents st) None.

    Let Hdh : forall d e k' c', In (d, e) (hs_ents st) -> alist_get e k' = Some c' -> c_dh c' = d.
    Proof. intros d e k' c' Hi. exact (eo_dh _ _ _ _ (hi_ents _ _ _ HI d e Hi) k' c'). Qed.

    (* whatever the transaction holds for k was written from some copy, for a descriptor that owns k *)
    Lemma written k x : R k = Some x ->
      exists d e, In (d, e) (hs_ents st) /\ In k (hget (hs_handles st) d) /\ wval m e k = Some x /\ own m d k.
    Proof.
      intros E. destruct (wres_writer _ _ _ _ _ _ E) as [?|(d & e & Hi & Hk & W)]; [discriminate|].
      exists d, e. repeat split; try assumption. apply (hi_hs _ _ _ HI d k Hk).
    Qed.

    (* a handle that holds a state after the write: the value comes from the LAST copy of its descriptor *)
    Lemma written_last k c' : R k = Some (Some c') ->
      exists e c, last_ent (c_dh c') (hs_ents st) = Some e /\ alist_get e k = Some c /\
                  c_assoc c' = c_assoc c /\ c_bind c' = c_bind c /\ c_unbind c' = c_unbind c.
    Proof.
      intros E. destruct (written _ _ E) as (d & e0 & Hi & Hk & W & _).
      destruct (wval_some _ _ _ _ W) as (c0 & E0 & Ed & _).
      assert (d = c_dh c') by (rewrite Ed; symmetry; eapply Hdh; eassumption). subst d.
      pose proof (wres_last m (hs_handles st) k c' Hk (hs_ents st) None Hdh E) as L.
      destruct (last_ent (c_dh c') (hs_ents st)) as [e|]; [|discriminate].
      destruct (wval_some _ _ _ _ L) as (c & Ec & _ & F). exists e, c. split; [reflexivity|]. split; [exact Ec|exact F].
    Qed.

    Lemma never_deleted k : R k <> Some None.
    Proof.
      intros E. destruct (written _ _ E) as (d & e0 & Hi & Hk & W & Ow).
      unfold wval in W. destruct (alist_get e0 k) as [c|] eqn:G; [destruct (cstates m k); discriminate|].
      unfold own in Ow. destruct (cstates m k) as [o|] eqn:Eo; [|discriminate].
      destruct (eo_frame _ _ _ _ (hi_ents _ _ _ HI d e0 Hi) k o Eo Ow) as (c' & G' & _). congruence.
    Qed.

    Lemma unwritten k d e : R k = None -> In (d, e) (hs_ents st) -> ~ In k (hget (hs_handles st) d).
    Proof.
      intros E Hi Hk. subst R. cbv beta in E. revert E. apply wres_written; [intros d0 e0; apply Hw|].
      right. now exists d, e.
    Qed.

    Variable mm : mdib.
    Hypothesis HP : forall k, cstates mm k = match R k with Some x => x | None => cstates m k end.

    Lemma committed_cases k :
      R k = None /\ cstates mm k = cstates m k \/ exists c', R k = Some (Some c') /\ cstates mm k = Some c'.
    Proof.
      rewrite HP. destruct (R k) as [[c'|]|] eqn:Rk; [right; now exists c'|now apply never_deleted in Rk|now left].
    Qed.

    (* the states of a descriptor after the write are those of its LAST copy, on written and unwritten handles alike:
       an unwritten handle keeps its committed state, which every copy holds unchanged *)
    Lemma committed_view k c' : cstates mm k = Some c' ->
      match last_ent (c_dh c') (hs_ents st) with
      | Some e => exists c, alist_get e k = Some c /\
                            c_assoc c' = c_assoc c /\ c_bind c' = c_bind c /\ c_unbind c' = c_unbind c
      | None => cstates m k = Some c'
      end.
    Proof.
      intros E. destruct (committed_cases k) as [[Rk Q]|(c1 & Rk & Q)]; rewrite Q in E.
      - destruct (last_ent (c_dh c') (hs_ents st)) as [e|] eqn:L; [|exact E]. apply last_ent_in in L.
        destruct (eo_frame _ _ _ _ (hi_ents _ _ _ HI _ _ L) k c' E eq_refl) as (c & G & [->|Hk]); [now exists c'|].
        now elim (unwritten k _ _ Rk L).
      - injection E as ->. destruct (written_last _ _ Rk) as (e & c & -> & G & F). now exists c.
    Qed.

    Lemma committed_uniq : uniq_assoc mm.
    Proof.
      intros k1 k2 c1 c2 E1 E2 Ed A1 A2.
      pose proof (committed_view k1 c1 E1) as V1. pose proof (committed_view k2 c2 E2) as V2. rewrite Ed in V1.
      destruct (last_ent (c_dh c2) (hs_ents st)) as [e|] eqn:L; [|eapply Hu; eassumption].
      destruct V1 as (x1 & G1 & F1 & _), V2 as (x2 & G2 & F2 & _).
      eapply (eo_uniq _ _ _ _ (hi_ents _ _ _ HI _ _ (last_ent_in _ _ _ L))); try eassumption; congruence.
    Qed.

    (* every state of the new table is a step of the committed state under its handle *)
    Lemma committed_step k c' : cstates mm k = Some c' -> st_step (ver m + 1) (cstates m k) c'.
    Proof.
      intros E. pose proof (committed_view k c' E) as V.
      destruct (last_ent (c_dh c') (hs_ents st)) as [e|] eqn:L.
      - destruct V as (x & G & F1 & F2 & F3). apply (st_step_ext _ _ x); try assumption.
        exact (eo_step _ _ _ _ (hi_ents _ _ _ HI _ _ (last_ent_in _ _ _ L)) k x G).
      - rewrite V. apply st_step_same, (Hopen k c' V).
    Qed.

    Lemma committed_kept k c : cstates m k = Some c -> exists c', cstates mm k = Some c' /\ c_dh c' = c_dh c.
    Proof.
      intros E. destruct (committed_cases k) as [[_ Q]|(c' & Rk & Q)]; rewrite Q; [now exists c|].
      exists c'. split; [reflexivity|]. destruct (written _ _ Rk) as (d & e0 & Hi & Hk & W & Ow).
      destruct (wval_some _ _ _ _ W) as (c0 & E0 & Ed & _). rewrite Ed, (Hdh d e0 k c0 Hi E0).
      unfold own in Ow. now rewrite E in Ow.
    Qed.

    (* states of descriptors for which nothing was proposed / collected are untouched *)
    Lemma committed_frame k c : cstates m k = Some c -> hget (hs_handles st) (c_dh c) = [] -> cstates mm k = Some c.
    Proof.
      intros E Hn. destruct (committed_cases k) as [[_ Q]|(c' & Rk & _)]; [now rewrite Q|]. exfalso.
      destruct (written _ _ Rk) as (d & e0 & _ & Hk & _ & Ow). unfold own in Ow. rewrite E in Ow. subst d.
      now rewrite Hn in Hk.
    Qed.
  End Committed.

  Theorem handler_preserves : ctx_inv m'.
  Proof.
    destruct handler_cases as [->|(st & HI & _ & Hw & HP & D1 & D2 & _)]; [exact Hinv|].
    apply ctx_inv_intro; try assumption.
    - eapply committed_uniq; eassumption.
    - intros k c E. exact (proj1 (committed_step st HI Hw m' HP k c E)).
  Qed.

  (* no state is deleted or moved to another descriptor (a new state never takes a used handle); every state is a
     step of its predecessor with the version THIS commit creates; if anything changed, MdibVersion was
     incremented by one *)
  Theorem handler_st_steps :
    (forall k c, cstates m k = Some c -> exists c', cstates m' k = Some c' /\ c_dh c' = c_dh c) /\
    (forall k c', cstates m' k = Some c' -> st_step (ver m + 1) (cstates m k) c') /\
    (m' = m \/ ver m' = ver m + 1).
  Proof.
    destruct handler_cases as [E|(st & HI & _ & Hw & HP & _)].
    - rewrite E. split; [intros k c Ek; now exists c|]. split; [|now left].
      intros k c' Ek. rewrite Ek. apply st_step_same, (Hopen k c' Ek).
    - split; [intros k c; eapply committed_kept; eassumption|].
      split; [intros k c'; eapply committed_step; eassumption|].
      destruct (set_context_state_atomic m fresh ps) as (A & B & [C|C]); fold m' in A, B;
        [destruct (B C); tauto|left; now apply A].
  Qed.

  Theorem handler_frame k c :
    cstates m k = Some c -> (forall p, In p ps -> pr_dh p <> c_dh c) -> cstates m' k = Some c.
  Proof.
    intros E Hp. destruct handler_cases as [->|(st & HI & HPs & Hw & HP & _)]; [assumption|].
    eapply committed_frame; try eassumption.
    rewrite (handle_proposals_handles m ps _ _ HPs (c_dh c) Hp). reflexivity.
  Qed.

  (* the operation uses no handles other than existing ones and the uuid4 handles it drew *)
  Theorem handler_dom k : In k (cdom m') -> In k (cdom m) \/ In k fresh.
  Proof.
    destruct handler_cases as [->|(st & _ & _ & _ & _ & _ & _ & Hd)]; [now left|apply Hd].
  Qed.
End Handler.

Lemma set_location_dom m dh h p k : (forall k c, cstates m k = Some c -> In k (cdom m)) -> ~ In h (cdom m) ->
  In k (cdom (fst (set_location m dh h p))) -> In k (cdom m) \/ k = h.
Proof.
  intros Hcov Hh. destruct (set_location_cases m dh h p Hcov Hh) as [->|(d & Hd & Hk & Hf)]; [now left|].
  destruct (set_location_commit m dh h p d Hd Hk Hf) as (t & C0 & -> & _ & OV). cbn [fst]. intros Hi.
  apply (ov_cdom _ _ _ OV) in Hi as [Hi|Hi]; [now left|].
  destruct (Z.eqb_spec k h) as [->|Hne]; [now right|left]. apply memz_In.
  destruct (memz k (cdom m)) eqn:M; [reflexivity|]. exfalso. apply (alist_get_none_notin (t_c t) k); [|exact Hi].
  rewrite C0, M. now destruct (Z.eqb_spec k h).
Qed.

Theorem set_location_preserves m dh h p : ctx_inv m -> ~ In h (cdom m) -> ctx_inv (fst (set_location m dh h p)).
Proof.
  intros Hinv Hh. pose proof Hinv as (Hnd & Hcov & _ & Hopen). pose proof (ctx_inv_uniq m Hinv) as Hu.
  destruct (set_location_cases m dh h p Hcov Hh) as [->|(d & Hd & Hk & Hfresh)]; [assumption|].
  pose proof (set_location_assoc m dh h p d Hd Hk Hfresh Hcov) as A.
  pose proof (set_location_st_steps m dh h p d Hd Hk Hfresh Hcov Hopen) as S.
  destruct (set_location_commit m dh h p d Hd Hk Hfresh) as (t & _ & Et & _ & OV). rewrite Et in *. cbn [fst] in *.
  apply ctx_inv_intro; [now apply (ov_cnodup _ _ _ OV)|now apply (overlaid_cover _ _ _ OV)| |].
  - (* an associated state is the new one, of descriptor dh, or a committed one of another descriptor *)
    intros k1 k2 c1 c2 E1 E2 Ed A1 A2.
    destruct (A k1 c1 E1 A1) as [[-> X1]|[M1 X1]], (A k2 c2 E2 A2) as [[-> X2]|[M2 X2]];
      try reflexivity; try congruence. eapply Hu; eassumption.
  - intros k c E. exact (proj1 (S k c E)).
Qed.

Definition crun (m : mdib) (ops : list cop) : mdib := fold_left (fun m' o => fst (cstep m' o)) ops m.

(* the uuid4 handles an operation draws *)
Definition op_handles (o : cop) : list H :=
  match o with CLoc _ h _ => [h] | CSet fresh _ => fresh end.
Definition hist_handles (ops : list cop) : list H := flat_map op_handles ops.

(* dynamic form of "fresh handles are fresh": no operation draws a handle that the MDIB has ever used *)
Fixpoint hist_fresh (m : mdib) (ops : list cop) : Prop :=
  match ops with
  | [] => True
  | o :: r => (forall h, In h (op_handles o) -> ~ In h (cdom m)) /\ hist_fresh (fst (cstep m o)) r
  end.

Lemma cstep_preserves m o : ctx_inv m -> (forall h, In h (op_handles o) -> ~ In h (cdom m)) -> ctx_inv (fst (cstep m o)).
Proof.
  intros Hinv Hf. destruct o as [dh h p|fresh ps]; cbn [cstep op_handles] in *.
  - apply set_location_preserves; [assumption|]. apply Hf. now left.
  - now apply handler_preserves.
Qed.

Lemma cstep_dom m o k : ctx_inv m -> (forall h, In h (op_handles o) -> ~ In h (cdom m)) ->
  In k (cdom (fst (cstep m o))) -> In k (cdom m) \/ In k (op_handles o).
Proof.
  intros Hinv Hf. destruct o as [dh h p|fresh ps]; cbn [cstep op_handles] in *.
  - intros Hk. apply set_location_dom in Hk as [Hk | ->]; [now left|right; now left|apply Hinv|apply Hf; now left].
  - now apply handler_dom.
Qed.

Theorem history_inv : forall ops m, ctx_inv m -> hist_fresh m ops -> forall n, ctx_inv (crun m (firstn n ops)).
Proof.
  induction ops as [|o r IH]; intros m Hinv Hf n.
  - destruct n; exact Hinv.
  - destruct n as [|n]; [exact Hinv|]. cbn [firstn crun fold_left]. destruct Hf as [Hf1 Hf2].
    apply (IH (fst (cstep m o))); [now apply cstep_preserves|assumption].
Qed.

(* static form: the handles drawn in the whole history are pairwise distinct and unused in the initial MDIB *)
Lemma hist_static_fresh : forall ops m, ctx_inv m ->
  NoDup (hist_handles ops) -> (forall h, In h (hist_handles ops) -> ~ In h (cdom m)) -> hist_fresh m ops.
Proof.
  induction ops as [|o r IH]; intros m Hinv Hnd Hf; cbn [hist_fresh]; [exact I|].
  unfold hist_handles in *. cbn [flat_map] in *.
  assert (Hf1 : forall h, In h (op_handles o) -> ~ In h (cdom m)) by (intros h Hi; apply Hf, in_or_app; now left).
  destruct (NoDup_app_inv _ _ Hnd) as (_ & Hr & Hd).
  split; [exact Hf1|]. apply IH.
  - now apply cstep_preserves.
  - exact Hr.
  - intros h Hi Hk. apply cstep_dom in Hk as [Hk|Hk]; try assumption.
    + apply (Hf h); [apply in_or_app; now right|assumption].
    + exact (Hd h Hk Hi).
Qed.

Theorem history_inv_static ops m : ctx_inv m ->
  NoDup (hist_handles ops) -> (forall h, In h (hist_handles ops) -> ~ In h (cdom m)) ->
  forall n, ctx_inv (crun m (firstn n ops)).
Proof. intros Hinv Hnd Hf. apply history_inv; [assumption|now apply hist_static_fresh]. Qed.

(* what one operation may do to the association of the context states (m before, m' after):
   - no state is deleted or moved to another descriptor;
   - a state that stopped being associated is disassociated, unbinding version = MdibVersion of m';
   - a state that became associated (or is new and associated) has binding version = MdibVersion of m';
   - MdibVersion is unchanged (then nothing changed) or incremented by one *)
Definition assoc_step (m m' : mdib) : Prop :=
  (forall k c, cstates m k = Some c -> exists c', cstates m' k = Some c' /\ c_dh c' = c_dh c) /\
  (forall k c c', cstates m k = Some c -> cstates m' k = Some c' -> c_assoc c = A_ASSOC -> c_assoc c' <> A_ASSOC ->
     c_assoc c' = A_DIS /\ c_unbind c' = Some (ver m')) /\
  (forall k c', cstates m' k = Some c' -> c_assoc c' = A_ASSOC ->
     match cstates m k with Some c => c_assoc c <> A_ASSOC | None => True end ->
     c_bind c' = Some (ver m')) /\
  (m' = m \/ ver m' = ver m + 1).

Lemma assoc_step_refl m : assoc_step m m.
Proof.
  unfold assoc_step. split; [|split; [|split]].
  - intros k c E. now exists c.
  - intros k c c' E E' Ea Hn. congruence.
  - intros k c' E Ea Hm. rewrite E in Hm. contradiction.
  - now left.
Qed.

(* from the per-state clauses, stated with ver m + 1 *)
Lemma assoc_step_intro m m' :
  (forall k c, cstates m k = Some c -> exists c', cstates m' k = Some c' /\ c_dh c' = c_dh c) ->
  (forall k c', cstates m' k = Some c' -> st_step (ver m + 1) (cstates m k) c') ->
  (m' = m \/ ver m' = ver m + 1) -> assoc_step m m'.
Proof.
  intros A S [->|V]; [apply assoc_step_refl|]. unfold assoc_step. rewrite V.
  destruct (st_step_clauses _ _ _ S) as [L B]. split; [exact A|]. split; [exact L|]. split; [exact B|now right].
Qed.

Theorem handler_assoc_step m fresh ps : ctx_inv m -> (forall h, In h fresh -> ~ In h (cdom m)) ->
  assoc_step m (fst (set_context_state m fresh ps)).
Proof. intros Hinv Hf. destruct (handler_st_steps m fresh ps Hinv Hf) as (A & B & C). now apply assoc_step_intro. Qed.

Theorem set_location_assoc_step m dh h p : ctx_inv m -> ~ In h (cdom m) -> assoc_step m (fst (set_location m dh h p)).
Proof.
  intros Hinv Hh. pose proof Hinv as (Hnd & Hcov & _ & Hopen).
  destruct (set_location_cases m dh h p Hcov Hh) as [->|(d & Hd & Hk & Hfresh)]; [apply assoc_step_refl|].
  destruct (set_location_pointwise m dh h p d Hd Hk Hfresh Hcov) as (_ & V & P).
  apply assoc_step_intro; [|now apply (set_location_st_steps m dh h p d)|now right].
  intros k c E. rewrite P. destruct (Z.eqb_spec k h) as [->|_]; [congruence|]. rewrite E.
  destruct (needs_dis dh c); eexists; split; reflexivity.
Qed.

Lemma cstep_step m o : ctx_inv m -> (forall h, In h (op_handles o) -> ~ In h (cdom m)) -> assoc_step m (fst (cstep m o)).
Proof.
  intros Hinv Hf. destruct o as [dh h p|fresh ps]; cbn [cstep op_handles] in *.
  - apply set_location_assoc_step; [assumption|]. apply Hf. now left.
  - now apply handler_assoc_step.
Qed.

Theorem history_steps : forall ops m, ctx_inv m -> hist_fresh m ops ->
  forall n o, nth_error ops n = Some o ->
  crun m (firstn (S n) ops) = fst (cstep (crun m (firstn n ops)) o) /\
  assoc_step (crun m (firstn n ops)) (crun m (firstn (S n) ops)).
Proof.
  induction ops as [|o0 r IH]; intros m Hinv Hf n o Hn; [destruct n; discriminate|].
  destruct Hf as [Hf1 Hf2]. destruct n as [|n].
  - injection Hn as ->. cbn [firstn crun fold_left]. split; [reflexivity|now apply cstep_step].
  - cbn [nth_error] in Hn. change (firstn (S (S n)) (o0 :: r)) with (o0 :: firstn (S n) r).
    change (firstn (S n) (o0 :: r)) with (o0 :: firstn n r). cbn [crun fold_left].
    apply (IH (fst (cstep m o0))); [now apply cstep_preserves|assumption|assumption].
Qed.

Theorem history_steps_static ops m : ctx_inv m ->
  NoDup (hist_handles ops) -> (forall h, In h (hist_handles ops) -> ~ In h (cdom m)) ->
  forall n o, nth_error ops n = Some o ->
  crun m (firstn (S n) ops) = fst (cstep (crun m (firstn n ops)) o) /\
  assoc_step (crun m (firstn n ops)) (crun m (firstn (S n) ops)).
Proof. intros Hinv Hnd Hf. apply history_steps; [assumption|now apply hist_static_fresh]. Qed.
