(* C02 for context transactions: version counters of context states never decrease (not even across delete and
   re-create of a handle), changed states have StateVersion + 1, every context state keeps referring to an existing
   context descriptor and carries its DescriptorVersion; single states and descriptors are untouched. *)
From Coq Require Import List ZArith Bool Lia.
From SDC Require Import Mdib.Model Mdib.Proofs.
Import ListNotations.
Open Scope Z_scope.

Definition ctx_action (a : action) : Prop :=
  match a with
  | ACtxMk _ _ _ _ _ | ACtxGet _ _ _ | ACtxDisAll _ _ | ACtxDel _ => True
  | _ => False
  end.
Definition ctx_only (acts : list action) : Prop := forall a, In a acts -> ctx_action a.

(* handles generated by uuid4 (mk_context_state without explicit handle) have never been used *)
Definition fresh_ok (m : mdib) (acts : list action) : Prop :=
  forall dh h assoc p, In (ACtxMk dh h false assoc p) acts -> sv_c m h = None /\ cstates m h = None.

(* effective version of a context state handle: the version it has, or the one remembered for the handle *)
Definition ev_c (m : mdib) (h : H) : Z :=
  match cstates m h with Some c => c_ver c | None => match sv_c m h with Some v => v | None => -1 end end.

Definition cstates_consistent (m : mdib) : Prop :=
  forall h c, cstates m h = Some c -> exists d, descrs m (c_dh c) = Some d /\ d_kind d = K_CTX /\ c_dver c = d_ver d.

Definition item_ok (m : mdib) (h : H) (x : option cstate) : Prop :=
  match x, cstates m h with
  | Some c, Some o => c_ver c = c_ver o + 1 /\ c_dh c = c_dh o /\ c_dver c = c_dver o
  | Some c, None => ev_c m h < c_ver c /\
                    exists d, descrs m (c_dh c) = Some d /\ d_kind d = K_CTX /\ c_dver c = d_ver d
  | None, Some _ => True
  | None, None => False
  end.

Record ctx_ok (m : mdib) (t : tx) : Prop := {
  cx_d : t_d t = [];
  cx_s : t_s t = [];
  cx_nodup : NoDup (map fst (t_c t));
  cx_items : forall h x, In (h, x) (t_c t) -> item_ok m h x
}.

Lemma empty_ctx_ok m : ctx_ok m empty_tx.
Proof. constructor; cbn; try reflexivity; try constructor; intros; contradiction. Qed.

Lemma set_item_ok m t h x :
  ctx_ok m t -> item_ok m h x -> ctx_ok m (mkTx (t_d t) (t_s t) (alist_set (t_c t) h x)).
Proof.
  intros [Hd Hs Hn Hi] Hx. constructor; cbn [t_d t_s t_c]; try assumption.
  - now apply (alist_set_nodup _ h x Hn).
  - intros h' x' Hin. destruct (alist_set_in _ _ _ _ _ Hn Hin) as [[-> ->]|[_ Hold]]; [exact Hx|now apply Hi].
Qed.

Lemma ctx_mk_ok m t dh h ex assoc p t' :
  ctx_ok m t -> (ex = false -> sv_c m h = None /\ cstates m h = None) ->
  ctx_mk m t dh h ex assoc p = Ok t' -> ctx_ok m t'.
Proof.
  intros Hok Hf. unfold ctx_mk. destruct (alist_has (t_c t) h); [discriminate|].
  destruct (descrs m dh) as [d|] eqn:Ed; [|discriminate].
  destruct (negb (d_kind d =? K_CTX)) eqn:Ek; [discriminate|].
  apply negb_false_iff, Z.eqb_eq in Ek.
  destruct (ex && match cstates m h with Some _ => true | None => false end) eqn:Ee; [discriminate|].
  intros [= <-]. apply set_item_ok; [assumption|].
  assert (Hnone : cstates m h = None).
  { destruct ex; [|now apply Hf]. cbn in Ee. destruct (cstates m h); [discriminate|reflexivity]. }
  unfold item_ok. rewrite Hnone. cbn [c_ver c_dh c_dver]. split.
  - unfold ev_c. rewrite Hnone. destruct ex.
    + unfold set_version. destruct (sv_c m h); lia.
    + destruct (Hf eq_refl) as [-> _]. lia.
  - exists d. repeat split; assumption.
Qed.

Lemma ctx_get_ok m t h p assoc t' : ctx_ok m t -> ctx_get m t h p assoc = Ok t' -> ctx_ok m t'.
Proof.
  intros Hok. unfold ctx_get. destruct (alist_has (t_c t) h); [discriminate|].
  destruct (cstates m h) as [c|] eqn:Ec; [|discriminate]. intros [= <-].
  apply set_item_ok; [assumption|]. unfold item_ok. rewrite Ec. cbn. repeat split.
Qed.

Lemma ctx_del_ok m t h t' : ctx_ok m t -> ctx_del m t h = Ok t' -> ctx_ok m t'.
Proof.
  intros Hok. unfold ctx_del. destruct (cstates m h) as [c|] eqn:Ec; [|discriminate]. intros [= <-].
  apply set_item_ok; [assumption|]. unfold item_ok. now rewrite Ec.
Qed.

Lemma ctx_disall_ok m t dh ig t' : ctx_ok m t -> ctx_disall m t dh ig = Ok t' -> ctx_ok m t'.
Proof.
  intros Hok. unfold ctx_disall. intros [= <-]. apply fold_inv; [|exact Hok]. clear t Hok. intros t h Hok.
  destruct (cstates m h) as [c|] eqn:Ec; [|exact Hok].
  destruct (negb (c_dh c =? dh)); [exact Hok|].
  destruct (_ || alist_has (t_c t) h); [exact Hok|].
  destruct (negb (c_assoc c =? 3) || _); [|exact Hok].
  apply set_item_ok; [assumption|]. unfold item_ok. rewrite Ec. cbn. repeat split.
Qed.

Lemma body_ctx_ok m : forall acts t t',
  ctx_only acts -> fresh_ok m acts -> ctx_ok m t -> body 5 m t acts = Ok t' -> ctx_ok m t'.
Proof.
  intros acts t t' Ho Hf. apply body_inv. intros a t0 t1 Hi Hok E.
  pose proof (Ho a Hi) as Ha. destruct a; cbn in Ha; try contradiction; cbn [apply_action] in E.
  - eapply ctx_mk_ok; [exact Hok| |exact E]. intros ->. eapply Hf. exact Hi.
  - eapply ctx_get_ok; eassumption.
  - eapply ctx_disall_ok; eassumption.
  - eapply ctx_del_ok; eassumption.
Qed.

Lemma commit_ctx_pointwise m t : ctx_ok m t ->
  descrs (commit_states m t) = descrs m /\ states (commit_states m t) = states m /\
  (forall k, cstates (commit_states m t) k = match alist_get (t_c t) k with Some x => x | None => cstates m k end) /\
  (forall k, sv_c (commit_states m t) k =
             match alist_get (t_c t) k, cstates m k with Some _, Some o => Some (c_ver o) | _, _ => sv_c m k end).
Proof.
  intros [Hd Hs Hn Hi]. destruct (commit_states_spec m t) as [D _ _ _ _ C V _ _ _ S]; [rewrite Hs; constructor|exact Hn|].
  repeat split; try assumption. apply (S Hs).
Qed.

Section CtxTx.
  Variables (m : mdib) (acts : list action).
  Hypothesis Hacts : ctx_only acts.
  Hypothesis Hfresh : fresh_ok m acts.

  Let m' := fst (transaction 5 None acts m).

  Lemma ctx_tx_cases : m' = m \/ exists t, ctx_ok m t /\ m' = commit_states m t.
  Proof.
    subst m'. destruct (transaction_cases 5 None acts m) as [[_ E]|(_ & t & B & -> & _)]; [now left|right].
    exists t. split; [|reflexivity]. eapply body_ctx_ok; try eassumption. apply empty_ctx_ok.
  Qed.

  Theorem ctx_tx_versions :
    (forall h, ev_c m h <= ev_c m' h) /\
    (forall h c c', cstates m h = Some c -> cstates m' h = Some c' -> c' <> c -> c_ver c' = c_ver c + 1) /\
    descrs m' = descrs m /\ states m' = states m.
  Proof.
    destruct ctx_tx_cases as [->|(t & Hok & ->)].
    - repeat split; try (intros; lia). intros h c c' E1 E2 Hne. rewrite E1 in E2. injection E2 as <-. contradiction.
    - destruct (commit_ctx_pointwise m t Hok) as (D & S & P & V). repeat split; try assumption.
      + intros h. unfold ev_c. rewrite P, V.
        destruct (alist_get (t_c t) h) as [x|] eqn:G.
        * apply alist_get_some_in in G. pose proof (cx_items _ _ Hok _ _ G) as I. unfold item_ok in I.
          destruct x as [c|], (cstates m h) as [o|] eqn:Eo; try contradiction.
          -- destruct I as (E & _). lia.
          -- destruct I as (E & _). unfold ev_c in E. rewrite Eo in E. lia.
          -- lia.
        * destruct (cstates m h); lia.
      + intros h c c' E1 E2 Hne. rewrite P in E2.
        destruct (alist_get (t_c t) h) as [x|] eqn:G.
        * subst x. apply alist_get_some_in in G. pose proof (cx_items _ _ Hok _ _ G) as I.
          unfold item_ok in I. rewrite E1 in I. tauto.
        * rewrite E1 in E2. injection E2 as <-. contradiction.
  Qed.

  Theorem ctx_tx_consistent : cstates_consistent m -> cstates_consistent m'.
  Proof.
    intros Hc. destruct ctx_tx_cases as [->|(t & Hok & ->)]; [exact Hc|].
    destruct (commit_ctx_pointwise m t Hok) as (D & _ & P & _).
    intros h c. rewrite P, D. destruct (alist_get (t_c t) h) as [x|] eqn:G; [|apply Hc].
    intros ->. apply alist_get_some_in in G. pose proof (cx_items _ _ Hok _ _ G) as I. unfold item_ok in I.
    destruct (cstates m h) as [o|] eqn:Eo.
    - destruct I as (_ & E1 & E2). destruct (Hc h o Eo) as (d & Hd & Hk & Hv).
      exists d. rewrite E1, E2. repeat split; assumption.
    - destruct I as (_ & d & Hd & Hk & Hv). exists d. repeat split; assumption.
  Qed.
End CtxTx.
