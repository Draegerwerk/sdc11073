(* DescriptionModificationReports on the consumer (C06) and the mirror step for descriptor transactions and for
   one transaction of any kind (pc_step3_ok); the induction over a history is Props/C01.v.  The models are
   Mdib/Model.v (provider) and Mdib/Consumer.v (consumer).  The report of a descriptor transaction and the
   well-formedness predicates of this file are defined here.  Mdib/Proofs_Descr.v analyses the same commit loop for
   C02 with an invariant of its own (version counters, no report lists).  Taken from there: the state items after
   upd_corr_state (ucs_ts, ucs_s_get, ucs_s_nodup, ucs_tc_inv), cr_spec / up_spec, no_orphan, what a descriptor
   body builds (body_dtx_ok), and below with fuel_ok and below_absent for the subtree search. *)
From Coq Require Import List ZArith Bool Lia.
From SDC Require Import Mdib.Model Mdib.Proofs Mdib.Proofs_Ctx Mdib.Consumer Mdib.Consumer_Proofs.
From SDC Require Mdib.Proofs_Descr.
Import ListNotations.
Open Scope Z_scope.

Definition doms_le (c c' : cmdib) : Prop := incl (cm_ddom c) (cm_ddom c') /\ incl (cm_cdom c) (cm_cdom c').
Lemma doms_le_refl c : doms_le c c.
Proof. split; apply incl_refl. Qed.

(* every descriptor / context state the consumer holds is listed in its handle domain (the model's stand-in
   for "the lookup can enumerate it") *)
Definition cdom_ok (c : cmdib) : Prop :=
  (forall h, cm_descrs c h <> None -> In h (cm_ddom c)) /\ (forall h, cm_cstates c h <> None -> In h (cm_cdom c)).

(* [pub Ds Ss Cs c c']: every table entry of c' is the entry of c or one of the listed items *)
Definition pub (Ds : list (H * descr)) (Ss : list (H * state)) (Cs : list (H * cstate)) (c c' : cmdib) : Prop :=
  (forall h d, cm_descrs c' h = Some d -> cm_descrs c h = Some d \/ In (h, d) Ds) /\
  (forall h s, cm_states c' h = Some s -> cm_states c h = Some s \/ In (h, s) Ss) /\
  (forall h s, cm_cstates c' h = Some s -> cm_cstates c h = Some s \/ In (h, s) Cs).

Lemma pub_refl Ds Ss Cs c : pub Ds Ss Cs c c.
Proof. repeat split; intros; now left. Qed.

Lemma pub_trans Ds Ss Cs a b c : pub Ds Ss Cs a b -> pub Ds Ss Cs b c -> pub Ds Ss Cs a c.
Proof.
  intros (A1 & A2 & A3) (B1 & B2 & B3). repeat split; intros h x E.
  - destruct (B1 h x E) as [E1|E1]; [now apply A1|now right].
  - destruct (B2 h x E) as [E1|E1]; [now apply A2|now right].
  - destruct (B3 h x E) as [E1|E1]; [now apply A3|now right].
Qed.

Lemma pub_mono Ds Ss Cs Ds' Ss' Cs' a b :
  incl Ds Ds' -> incl Ss Ss' -> incl Cs Cs' -> pub Ds Ss Cs a b -> pub Ds' Ss' Cs' a b.
Proof.
  intros I1 I2 I3 (A1 & A2 & A3). repeat split; intros h x E.
  - destruct (A1 h x E); [now left|right; now apply I1].
  - destruct (A2 h x E); [now left|right; now apply I2].
  - destruct (A3 h x E); [now left|right; now apply I3].
Qed.

Lemma pub_put_cd Ds Ss Cs c h d : In (h, d) Ds -> pub Ds Ss Cs c (put_cd c h (Some d)).
Proof. intros Hi. repeat split; intros x y E; try (now left). destruct (upd_some _ _ _ _ _ E) as [E0|<-]; [now left|now right]. Qed.
Lemma pub_put_cs Ds Ss Cs c h s : In (h, s) Ss -> pub Ds Ss Cs c (put_cs c h s).
Proof. intros Hi. repeat split; intros x y E; try (now left). destruct (upd_some _ _ _ _ _ E) as [E0|<-]; [now left|now right]. Qed.
Lemma pub_put_ccs Ds Ss Cs c h s : In (h, s) Cs -> pub Ds Ss Cs c (put_ccs c h s).
Proof. intros Hi. repeat split; intros x y E; try (now left). destruct (upd_some _ _ _ _ _ E) as [E0|<-]; [now left|now right]. Qed.

Lemma pub_cfold Ds Ss Cs P l c : pub Ds Ss Cs c (cfold P l c).
Proof.
  repeat split; intros x y E; left.
  - now rewrite (cfold_frame cm_descrs) in E by reflexivity.
  - now rewrite (cfold_frame cm_states) in E by reflexivity.
  - rewrite cfold_cstates in E. destruct (cm_cstates c x) as [s|]; [|discriminate].
    destruct (memz x l && P x s); [discriminate|exact E].
Qed.
Lemma pub_crm_list Ds Ss Cs l c : pub Ds Ss Cs c (fold_left crm_one l c).
Proof.
  repeat split; intros x y E; left.
  - rewrite crm_list_descrs in E. destruct (memz x l); [discriminate|exact E].
  - rewrite crm_list_states in E. destruct (memz x l); [discriminate|exact E].
  - rewrite crm_list_cstates in E. destruct (cm_cstates c x) as [s|]; [|discriminate].
    destruct (memz x (cm_cdom c) && memz (c_dh s) l); [discriminate|exact E].
Qed.

Lemma apply_parts_pub ps c :
  pub (concat (map dp_descrs ps)) (concat (map dp_states ps)) (concat (map dp_cstates ps)) c (fst (apply_parts c ps)).
Proof.
  apply (parts_rel pub); [apply pub_refl|apply pub_trans|apply pub_mono|apply pub_put_cd|apply pub_put_cs|
                          apply pub_put_ccs|apply pub_cfold|apply pub_crm_list].
Qed.

Lemma in_concat_map {A} (f : dpart -> list A) ps x : In x (concat (map f ps)) -> exists p, In p ps /\ In x (f p).
Proof. rewrite <- flat_map_concat_map. apply in_flat_map. Qed.

(* C06 for description modification reports, published-only: whatever the report (stale, duplicated, out of
   order, interrupted by the KeyError of a CREATE of an existing handle), every descriptor / state / context
   state the consumer holds afterwards is the one it held before or an item of one of the report's parts *)
Theorem descr_report_published_only c vg parts :
  let c' := fst (process c (RDescr vg parts)) in
  (forall h d, cm_descrs c' h = Some d ->
     cm_descrs c h = Some d \/ exists p, In p parts /\ In (h, d) (dp_descrs p)) /\
  (forall h s, cm_states c' h = Some s ->
     cm_states c h = Some s \/ exists p, In p parts /\ In (h, s) (dp_states p)) /\
  (forall h s, cm_cstates c' h = Some s ->
     cm_cstates c h = Some s \/ exists p, In p parts /\ In (h, s) (dp_cstates p)).
Proof.
  cbv zeta. destruct (process_hdr c (RDescr vg parts)) as [->|[_ G]].
  - cbn [fst]. repeat split; intros; now left.
  - rewrite (process_accept _ _ G). cbn [report_vg]. destruct (apply_parts_pub parts (set_vg c vg)) as (A & B & C).
    repeat split; intros h x E.
    + destruct (A h x E) as [E1|E1]; [now left|right; now apply in_concat_map].
    + destruct (B h x E) as [E1|E1]; [now left|right; now apply in_concat_map].
    + destruct (C h x E) as [E1|E1]; [now left|right; now apply in_concat_map].
Qed.

Definition known_val {A} (old : option A) (new : A) : option A := match old with Some _ => Some new | None => None end.

Lemma upd_part_spec c h d S CS :
  cm_descrs c h <> None -> NoDup (map fst S) -> NoDup (map fst CS) ->
  (d_kind d = K_CTX -> forall ch s, cm_cstates c ch = Some s -> c_dh s = h -> alist_has CS ch = true) ->
  exists c', apply_part c (mkDPart 1 [(h, d)] S CS) = (c', [(N_UPD, h)], false) /\
  (forall y, cm_descrs c' y = if Z.eqb h y then Some d else cm_descrs c y) /\
  (forall y, cm_states c' y = match alist_get S y with Some s => known_val (cm_states c y) s | None => cm_states c y end) /\
  (forall y, cm_cstates c' y = match alist_get CS y with Some s => known_val (cm_cstates c y) s | None => cm_cstates c y end).
Proof.
  intros Hk HS HCS Hall. rewrite apply_part_eq. cbn [dp_mod dp_descrs dp_states dp_cstates map fst fold_left].
  change (1 =? 0) with false. change (1 =? 1) with true. cbv iota.
  eexists. split; [reflexivity|].
  set (c1 := upd_descr_step CS c (h, d)).
  assert (D1 : (forall y, cm_descrs c1 y = if Z.eqb h y then Some d else cm_descrs c y) /\
               cm_states c1 = cm_states c /\ (forall y, cm_cstates c1 y = cm_cstates c y)).
  { subst c1. unfold upd_descr_step. cbn [fst snd].
    destruct (cm_descrs c h) as [o|] eqn:E; [|contradiction].
    destruct (d_kind d =? K_CTX) eqn:K; [|repeat split; reflexivity].
    rewrite (cfold_frame cm_descrs), (cfold_frame cm_states) by reflexivity.
    split; [reflexivity|]. split; [reflexivity|].
    intros y. rewrite cfold_cstates. cbn [put_cd cm_cstates cm_cdom].
    destruct (cm_cstates c y) as [s|] eqn:Es; [|reflexivity].
    destruct (Z.eqb_spec (c_dh s) h) as [Eh|]; [|now rewrite andb_false_r].
    apply Z.eqb_eq in K. rewrite (Hall K y s Es Eh). cbn. now rewrite andb_false_r. }
  destruct D1 as (Dd & Ds & Dc). split; [|split]; intros y.
  - rewrite !(fold_rk_frame cm_descrs) by reflexivity. apply Dd.
  - rewrite (fold_rk_frame cm_states) by reflexivity. rewrite (fold_rk_get put_cs_states) by exact HS. now rewrite Ds.
  - rewrite (fold_rk_get put_ccs_cstates) by exact HCS. rewrite (fold_rk_frame cm_cstates) by reflexivity. now rewrite Dc.
Qed.

Lemma crt_part_spec c h d S CS :
  cm_descrs c h = None -> NoDup (map fst S) -> NoDup (map fst CS) ->
  exists c', apply_part c (mkDPart 0 [(h, d)] S CS) = (c', [(N_NEW, h)], false) /\
  (forall y, cm_descrs c' y = if Z.eqb h y then Some d else cm_descrs c y) /\
  (forall y, cm_states c' y = match alist_get S y with Some s => Some s | None => cm_states c y end) /\
  (forall y, cm_cstates c' y = match alist_get CS y with Some s => Some s | None => cm_cstates c y end).
Proof.
  intros Hk HS HCS. rewrite apply_part_eq. cbn [dp_mod dp_descrs dp_states dp_cstates].
  change (0 =? 0) with true. cbv iota. cbn [fold_left create_step fst snd]. rewrite Hk. cbn [app].
  eexists. split; [reflexivity|]. split; [|split]; intros y.
  - rewrite !(fold_frame cm_descrs) by reflexivity. reflexivity.
  - rewrite (fold_frame cm_states) by reflexivity. now rewrite (fold_put_get put_cs_states) by exact HS.
  - rewrite (fold_put_get put_ccs_cstates) by exact HCS. now rewrite (fold_frame cm_cstates) by reflexivity.
Qed.

Definition crm_sub (c : cmdib) (h : H) : cmdib := fold_left crm_one (csubtree c h) c.

Lemma del_part_single c h d S CS m0 : m0 <> 0 -> m0 <> 1 ->
  apply_part c (mkDPart m0 [(h, d)] S CS) = (crm_sub c h, map (fun x => (N_DEL, x)) (csubtree c h), false).
Proof.
  intros H0 H1. rewrite apply_part_eq. cbn [dp_mod dp_descrs].
  destruct (Z.eqb_spec m0 0); [contradiction|]. destruct (Z.eqb_spec m0 1); [contradiction|]. reflexivity.
Qed.

Lemma cdom_ok_put_cd c h d : cdom_ok c -> cdom_ok (put_cd c h d).
Proof. intros [A B]. split; [now apply upd_dom|exact B]. Qed.
Lemma cdom_ok_put_cc c h s : cdom_ok c -> cdom_ok (put_cc c h s).
Proof. intros [A B]. split; [exact A|now apply upd_dom]. Qed.

Lemma apply_parts_cdom_ok ps c : cdom_ok c -> cdom_ok (fst (apply_parts c ps)).
Proof.
  apply (parts_rel (fun _ _ _ c0 c1 => cdom_ok c0 -> cdom_ok c1)); clear.
  - intros; assumption.
  - intros Ds Ss Cs a b c0 H1 H2 H0. auto.
  - intros Ds Ss Cs Ds' Ss' Cs' a b _ _ _ H0. exact H0.
  - intros. now apply cdom_ok_put_cd.
  - intros Ds Ss Cs c h s _ H0. exact H0.
  - intros. now apply cdom_ok_put_cc.
  - intros Ds Ss Cs P l c [A B]. split.
    + rewrite (cfold_frame cm_descrs), (cfold_frame cm_ddom) by reflexivity. exact A.
    + intros x Hx. apply cfold_cdom_incl, B. rewrite cfold_cstates in Hx.
      destruct (cm_cstates c x); [discriminate|contradiction].
  - intros Ds Ss Cs l c [A B]. split.
    + intros x Hx. apply crm_list_ddom, A. rewrite crm_list_descrs in Hx. destruct (memz x l); [contradiction|exact Hx].
    + intros x Hx. rewrite crm_list_cdom. apply B. rewrite crm_list_cstates in Hx.
      destruct (cm_cstates c x); [discriminate|contradiction].
Qed.

Lemma apply_part_cdom_ok c0 p c' ns : apply_part c0 p = (c', ns, false) -> cdom_ok c0 -> cdom_ok c'.
Proof.
  intros Hp Hc. pose proof (apply_parts_cdom_ok [p] c0 Hc) as G. cbn [apply_parts] in G. rewrite Hp in G. exact G.
Qed.

Lemma process_cdom_ok c r : cdom_ok c -> cdom_ok (fst (process c r)).
Proof.
  intros Hc. destruct (process_hdr c r) as [->|[_ G]]; [exact Hc|]. rewrite (process_accept _ _ G).
  destruct r as [vg items|vg items|vg parts].
  - rewrite upd_states_gfold. apply (gfold_inv cdom_ok); [|exact Hc]. intros c0 h v H0. exact H0.
  - rewrite upd_cstates_gfold. apply (gfold_inv cdom_ok); [|exact Hc]. intros c0 h v. apply cdom_ok_put_cc.
  - now apply apply_parts_cdom_ok.
Qed.

Lemma receive_cdom_ok c r : cdom_ok c -> cdom_ok (fst (receive c r)).
Proof.
  intros Hc. destruct (receive_cases c r) as [(_ & _ & _ & ->)|(md & bf & ->)]; [now apply process_cdom_ok|exact Hc].
Qed.

Definition par (D : H -> option descr) (x : H) : option H :=
  match D x with Some d => d_parent d | None => None end.

Fixpoint greach (D : H -> option descr) (fuel : nat) (h root : H) : bool :=
  if Z.eqb h root then true else
  match fuel with
  | O => false
  | S f => match par D h with Some p => greach D f p root | None => false end
  end.

(* h lies below root (or is root): reachability along parent handles, without fuel *)
Inductive reachR (D : H -> option descr) : H -> H -> Prop :=
| reach_refl h : reachR D h h
| reach_step h p r : par D h = Some p -> reachR D p r -> reachR D h r.

Lemma reaches_greach m n : forall h r, reaches m n h r = greach (descrs m) n h r.
Proof.
  induction n as [|n IH]; intros h r; cbn [reaches greach]; [reflexivity|].
  unfold par. destruct (h =? r); [reflexivity|]. destruct (descrs m h) as [d|]; [|reflexivity].
  destruct (d_parent d); [apply IH|reflexivity].
Qed.
Lemma creaches_greach c n : forall h r, creaches c n h r = greach (cm_descrs c) n h r.
Proof.
  induction n as [|n IH]; intros h r; cbn [creaches greach]; [reflexivity|].
  unfold par. destruct (h =? r); [reflexivity|]. destruct (cm_descrs c h) as [d|]; [|reflexivity].
  destruct (d_parent d); [apply IH|reflexivity].
Qed.

Lemma greach_ext D D' n : (forall x, D x = D' x) -> forall h r, greach D n h r = greach D' n h r.
Proof.
  intros E. induction n as [|n IH]; intros h r; cbn [greach]; [reflexivity|].
  unfold par. rewrite E. destruct (h =? r); [reflexivity|]. destruct (D' h) as [d|]; [|reflexivity].
  destruct (d_parent d); [apply IH|reflexivity].
Qed.

Lemma greach_sound D n : forall h r, greach D n h r = true -> reachR D h r.
Proof.
  induction n as [|n IH]; intros h r; cbn [greach].
  - destruct (Z.eqb_spec h r) as [->|]; [constructor|discriminate].
  - destruct (Z.eqb_spec h r) as [->|]; [constructor|].
    destruct (par D h) as [p|] eqn:E; [|discriminate]. intros G. eapply reach_step; [exact E|now apply IH].
Qed.

Lemma reachR_trans D a b c : reachR D a b -> reachR D b c -> reachR D a c.
Proof. induction 1 as [|h p r E _ IH]; [easy|]. intros G. eapply reach_step; [exact E|now apply IH]. Qed.

Lemma reachR_linear D x a b : reachR D x a -> reachR D x b -> reachR D a b \/ reachR D b a.
Proof.
  induction 1 as [h|h p r E Hr IH]; intros G; [now left|].
  inversion G as [|? p' ? E' Hr']; subst.
  - right. eapply reach_step; eassumption.
  - rewrite E in E'. injection E' as <-. now apply IH.
Qed.

(* reachR (descrs m) is Proofs_Descr.below m; the argument that the fuel suffices is made there *)
Lemma reachR_below m h r : reachR (descrs m) h r -> Proofs_Descr.below m h r.
Proof.
  induction 1 as [h|h p r E _ IH]; [constructor|]. unfold par in E. destruct (descrs m h) as [d|] eqn:Ed; [|discriminate].
  eapply Proofs_Descr.below_step; eassumption.
Qed.

(* Proofs_Descr.fuel_ok, read for the MDIB that holds D and dom *)
Lemma greach_complete D dom h r :
  (forall x, D x <> None -> In x dom) -> reachR D h r -> greach D (length dom) h r = true.
Proof.
  intros Hd G. set (m := mkMdib D (fun _ => None) (fun _ => None) 0 (fun _ => None) (fun _ => None) (fun _ => None) dom []).
  rewrite <- (reaches_greach m). apply (Proofs_Descr.fuel_ok m Hd). now apply reachR_below.
Qed.

Lemma subtree_In m root x : (forall y, descrs m y <> None -> In y (ddom m)) ->
  In x (subtree m root) <-> descrs m x <> None /\ reachR (descrs m) x root.
Proof.
  intros Hd. unfold subtree. rewrite filter_In. destruct (descrs m x) as [d|] eqn:E; [|intuition congruence].
  rewrite reaches_greach. split.
  - intros [_ G]. split; [discriminate|now apply greach_sound in G].
  - intros [_ G]. split; [apply Hd; congruence|now apply greach_complete].
Qed.

Lemma csubtree_In_sem c root x : cdom_ok c ->
  In x (csubtree c root) <-> cm_descrs c x <> None /\ reachR (cm_descrs c) x root.
Proof.
  intros [Hd _]. unfold csubtree. rewrite filter_In. destruct (cm_descrs c x) as [d|] eqn:E; [|intuition congruence].
  rewrite creaches_greach. split.
  - intros [_ G]. split; [discriminate|now apply greach_sound in G].
  - intros [_ G]. split; [apply Hd; congruence|now apply greach_complete].
Qed.

(* _update_corresponding_state, pointwise on the transaction's item lists *)
Definition corr_cstate (dv : Z) (c : cstate) : cstate :=
  mkCState (c_dh c) dv (c_ver c + 1) (c_assoc c) (c_bind c) (c_unbind c) (c_pay c).
Definition corr_state (m : mdib) (ts : list (H * state)) (h : H) (dv : Z) : option state :=
  match alist_get ts h with
  | Some n => Some (mkState dv (s_ver n) (s_pay n))
  | None => match states m h with Some o => Some (mkState dv (s_ver o + 1) (s_pay o)) | None => None end
  end.

(* one round of the context branch on the pending entry of context state ch *)
Definition ucs_val (m : mdib) (h : H) (dv : Z) (ch : H) (w : option (option cstate)) : option (option cstate) :=
  match cstates m ch with
  | Some c => if Z.eqb (c_dh c) h then
                match w with
                | Some (Some n) => Some (Some (corr_cstate dv n))
                | Some None => Some None
                | None => Some (Some (corr_cstate dv c))
                end
              else w
  | None => w
  end.

Lemma ucs_tc m t h dv k ch : NoDup (cdom m) ->
  alist_get (t_c (upd_corr_state m t h dv k)) ch =
  if Z.eqb k K_CTX && memz ch (cdom m) then ucs_val m h dv ch (alist_get (t_c t) ch) else alist_get (t_c t) ch.
Proof.
  intros Hcd. unfold upd_corr_state. destruct (k =? K_CTX); cbn [andb].
  - apply (fold_own_key (fun t0 y => alist_get (t_c t0) y) _ (ucs_val m h dv)); [|exact Hcd].
    intros t0 a y. unfold ucs_val. destruct (cstates m a) as [c|]; [|now destruct (Z.eqb_spec a y) as [<-|]].
    destruct (c_dh c =? h); cbn [negb]; [|now destruct (Z.eqb_spec a y) as [<-|]].
    destruct (alist_get (t_c t0) a) as [[n|]|] eqn:E; cbn [t_c]; rewrite ?alist_get_set, ?(Z.eqb_sym y a); try reflexivity.
    now destruct (Z.eqb_spec a y) as [<-|].
  - destruct (alist_get (t_s t) h); [reflexivity|]. now destruct (states m h).
Qed.

(* DescriptorTransaction.process_transaction collects, while it walks over descriptor_updates, the lists
   descr_updated / descr_created / descr_deleted of its TransactionResult (transactions.py); SdcProvider.
   _send_episodic_reports hands them with all_states() to DescriptionEventService.send_descriptor_updates, which
   emits one report part per descriptor - updated first, then created, then deleted - each with the states whose
   DescriptorHandle is that descriptor's handle (descriptioneventserviceimpl.py).  Mdib/Model.v's process_item
   does not keep these lists, so they are recomputed here next to it. *)
Definition bump_d (o : descr) : descr := mkDescr (d_parent o) (d_kind o) (d_ver o + 1) (d_pay o).

Definition rlists := (list (H * descr) * list (H * descr) * list (H * descr))%type.   (* updated, created, deleted *)

(* _increment_parent_descriptor_version appends the incremented parent (if it exists and was not skipped) *)
Definition parent_upd (m1 : mdib) (skip : bool) (p : H) : list (H * descr) :=
  if skip then [] else match descrs m1 p with Some o => [(p, bump_d o)] | None => [] end.

Definition descrs_of (m : mdib) (l : list H) : list (H * descr) :=
  flat_map (fun x => match descrs m x with Some dx => [(x, dx)] | None => [] end) l.

Definition item_lists (cr up de : list H) (m : mdib) (bumped : list H) (e : H * option descr) : rlists :=
  let h := fst e in
  match snd e, descrs m h with
  | Some d, None =>
      (match d_parent d with
       | Some p => parent_upd (set_descr m h (Some d)) (memz p cr || memz p up || memz p bumped) p
       | None => []
       end, [(h, d)], [])
  | None, Some o =>
      (match d_parent o with
       | Some p => parent_upd (fold_left rm_one (subtree m h) m) (memz p de || memz p up || memz p bumped) p
       | None => []
       end, [], descrs_of m (subtree m h))
  | Some d, Some _ => ([(h, d)], [], [])
  | None, None => ([], [], [])
  end.

Definition pstate := (mdib * tx * list H * rlists)%type.

Definition process_item_r (cr up de : list H) (acc : pstate) (e : H * option descr) : pstate :=
  let mtb := fst acc in
  let il := item_lists cr up de (fst (fst mtb)) (snd mtb) e in
  (process_item cr up de mtb e,
   (fst (fst (snd acc)) ++ fst (fst il), snd (fst (snd acc)) ++ snd (fst il), snd (snd acc) ++ snd il)).

Definition tx_run (m : mdib) (t : tx) : pstate :=
  let cr := map fst (filter (is_create m) (t_d t)) in
  let up := map fst (filter (is_update m) (t_d t)) in
  let de := removed_handles m t in
  fold_left (process_item_r cr up de) (t_d t) (bump_ver m, t, [], ([], [], [])).

(* TransactionResult.descr_updated / descr_created / descr_deleted of the committed transaction *)
Definition tx_updated (m : mdib) (t : tx) : list (H * descr) := fst (fst (snd (tx_run m t))).
Definition tx_created (m : mdib) (t : tx) : list (H * descr) := snd (fst (snd (tx_run m t))).
Definition tx_deleted (m : mdib) (t : tx) : list (H * descr) := snd (snd (tx_run m t)).

Lemma fold_process_item_r cr up de l : forall acc,
  fst (fold_left (process_item_r cr up de) l acc) = fold_left (process_item cr up de) l (fst acc).
Proof. induction l as [|e l IH]; intros acc; cbn [fold_left]; [reflexivity|]. rewrite IH. reflexivity. Qed.

Lemma commit_descr_run m t : t_d t <> [] ->
  commit_descr m t = handle_state_updates (fst (fst (fst (tx_run m t)))) (snd (fst (fst (tx_run m t)))).
Proof.
  intros Hne. unfold commit_descr, tx_run. destruct (t_d t) as [|e0 l0] eqn:E; [contradiction|].
  rewrite fold_process_item_r. cbn [fst].
  match goal with |- context [fold_left ?f ?l ?a] => destruct (fold_left f l a) as [[m1 t1] b1] end. reflexivity.
Qed.

(* one report part per descriptor, with the states that belong to it *)
Definition part_for (t1 : tx) (modi : Z) (e : H * descr) : dpart :=
  mkDPart modi [e] (filter (fun x => Z.eqb (fst x) (fst e)) (t_s t1))
          (filter (fun x => Z.eqb (c_dh (snd x)) (fst e)) (ctx_report_items t1)).

Definition descr_report (m : mdib) (t : tx) (seq inst : Z) : report :=
  let st := tx_run m t in
  let t1 := snd (fst (fst st)) in
  let U := fst (fst (snd st)) in let C := snd (fst (snd st)) in let D := snd (snd st) in
  RDescr (mkVg (ver m + 1) seq inst) (map (part_for t1 1) U ++ map (part_for t1 0) C ++ map (part_for t1 2) D).

(* provider MDIB: the lookups can enumerate what they hold; no state without descriptor, no context state
   without descriptor *)
Record pm_ok (m : mdib) : Prop := {
  pm_dd : forall h, descrs m h <> None -> In h (ddom m);
  pm_cd : forall h, cstates m h <> None -> In h (cdom m);
  pm_nd : NoDup (cdom m);
  pm_st : forall h, states m h <> None -> descrs m h <> None;
  pm_cs : forall ch c, cstates m ch = Some c -> descrs m (c_dh c) <> None
}.

(* state and context transactions keep it *)
Lemma commit_states_pm_ok m t : NoDup (map fst (t_s t)) -> NoDup (map fst (t_c t)) ->
  (forall h s, In (h, s) (t_s t) -> descrs m h <> None) ->
  (forall ch c, In (ch, Some c) (t_c t) -> descrs m (c_dh c) <> None) ->
  pm_ok m -> pm_ok (commit_states m t).
Proof.
  intros Hs Hc Is Ic [A B C D E]. destruct (commit_states_spec m t Hs Hc) as [Od _ Odd Os _ Oc _ Ocd Ocn _ _].
  constructor.
  - intros h. rewrite Od, Odd. apply A.
  - intros h Hh. apply Ocd. rewrite Oc in Hh.
    destruct (alist_get (t_c t) h) eqn:G; [right; eapply alist_get_key; exact G|left; now apply B].
  - now apply Ocn.
  - intros h. rewrite Os, Od. destruct (alist_get (t_s t) h) as [s|] eqn:G; [|apply D].
    intros _. apply alist_get_some_in in G. eapply Is; exact G.
  - intros ch c0. rewrite Oc, Od. destruct (alist_get (t_c t) ch) as [x|] eqn:G; [|apply E].
    intros ->. apply alist_get_some_in in G. eapply Ic; exact G.
Qed.

Lemma commit_states_pm_ok_state k m t : stx_ok k m t -> pm_ok m -> pm_ok (commit_states m t).
Proof.
  intros Hok Hm. apply commit_states_pm_ok; [apply (sx_nodup _ _ _ Hok)|rewrite (sx_c _ _ _ Hok); apply NoDup_nil| | |exact Hm].
  - intros h s Hi. destruct (sx_items _ _ _ Hok _ _ Hi) as (o & Eo & _). apply (pm_st _ Hm). congruence.
  - rewrite (sx_c _ _ _ Hok). intros ch c0 [].
Qed.

Lemma commit_states_pm_ok_ctx m t : ctx_ok m t -> pm_ok m -> pm_ok (commit_states m t).
Proof.
  intros Hok Hm. apply commit_states_pm_ok; [rewrite (cx_s _ _ Hok); apply NoDup_nil|apply (cx_nodup _ _ Hok)| | |exact Hm].
  - rewrite (cx_s _ _ Hok). intros h s [].
  - intros ch c0 Hi. pose proof (cx_items _ _ Hok _ _ Hi) as I. unfold item_ok in I. destruct (cstates m ch) as [o|] eqn:Eo.
    + destruct I as (_ & -> & _). exact (pm_cs _ Hm ch o Eo).
    + destruct I as (_ & d & -> & _). discriminate.
Qed.

(* x does not lie in a subtree that the transaction deletes *)
Definition undel (m : mdib) (t : tx) (x : H) : Prop :=
  forall r, In (r, None) (t_d t) -> ~ reachR (descrs m) x r.

Definition tree_ok (m : mdib) : Prop :=
  forall h d p, descrs m h = Some d -> d_parent d = Some p -> descrs m p <> None.

(* no orphan is created: the parent of a created descriptor exists or is given by the same transaction *)
Definition dpar_ok (m : mdib) (t : tx) : Prop :=
  forall h d p, In (h, Some d) (t_d t) -> descrs m h = None -> d_parent d = Some p ->
                descrs m p <> None \/ exists d', In (p, Some d') (t_d t).

(* what the API calls of a descriptor transaction guarantee by themselves *)
Record dshape (m : mdib) (t : tx) : Prop := {
  ds_c : t_c t = [];
  ds_nd : NoDup (map fst (t_d t));
  ds_ns : NoDup (map fst (t_s t));
  ds_st : forall h s, In (h, s) (t_s t) ->
            (exists d, In (h, Some d) (t_d t)) /\ (descrs m h <> None -> states m h <> None);
  ds_del : forall r, In (r, None) (t_d t) -> descrs m r <> None;
  ds_upd : forall h d o, In (h, Some d) (t_d t) -> descrs m h = Some o ->
             d_parent d = d_parent o /\ d_kind d = d_kind o
}.

(* the one thing neither the API calls nor the conflict check of process_transaction guarantee: the parent handle
   of a removed descriptor must not be a descriptor that the same transaction creates.  It holds whenever every
   parent handle of the MDIB refers to an existing descriptor: *)
Definition dpar_res (m : mdib) (t : tx) : Prop :=
  forall r o p, In (r, None) (t_d t) -> descrs m r = Some o -> d_parent o = Some p ->
                memz p (map fst (filter (is_create m) (t_d t))) = false.

Lemma tree_dpar_res m t : tree_ok m -> dpar_res m t.
Proof.
  intros Htr r o p Hr Eo Ep. destruct (memz p (map fst (filter (is_create m) (t_d t)))) eqn:E; [|reflexivity].
  apply Proofs_Descr.cr_spec in E. destruct E as (d & _ & En). exfalso. exact (Htr r o p Eo Ep En).
Qed.

(* the hypotheses of the mirror step on the pending transaction: dshape, no conflict and dpar_res, written out
   flat; dtx_ok_intro assembles it from the three *)
Record dtx_ok (m : mdib) (t : tx) : Prop := {
  (* shape: what the API calls of a descriptor transaction build (see body_dshape) *)
  dx_c : t_c t = [];
  dx_nd : NoDup (map fst (t_d t));
  dx_ns : NoDup (map fst (t_s t));
  dx_st : forall h s, In (h, s) (t_s t) ->
            (exists d, In (h, Some d) (t_d t)) /\ (descrs m h <> None -> states m h <> None);
  dx_del : forall r, In (r, None) (t_d t) -> descrs m r <> None;
  dx_upd : forall h d o, In (h, Some d) (t_d t) -> descrs m h = Some o ->
             d_parent d = d_parent o /\ d_kind d = d_kind o;
  (* the check process_transaction makes before it changes anything: nothing is created or updated inside a
     subtree that the transaction removes *)
  dx_nc : subtree_conflict m t = false;
  (* residue: the parent handle of a removed descriptor is not a descriptor that this transaction creates
     (it follows when every parent handle of the MDIB refers to an existing descriptor, see tree_ok) *)
  dx_par : forall r o p, In (r, None) (t_d t) -> descrs m r = Some o -> d_parent o = Some p ->
             memz p (map fst (filter (is_create m) (t_d t))) = false
}.

Lemma dtx_ok_intro m t : dshape m t -> subtree_conflict m t = false -> dpar_res m t -> dtx_ok m t.
Proof. intros [A B C D E F] G I. constructor; assumption. Qed.

Lemma dtx_ok_elim m t : dtx_ok m t -> dshape m t /\ subtree_conflict m t = false /\ dpar_res m t.
Proof. intros [A B C D E F G I]. split; [constructor; assumption|split; assumption]. Qed.

Lemma removed_handles_spec m t y : (forall x, descrs m x <> None -> In x (ddom m)) ->
  memz y (removed_handles m t) = true <->
  descrs m y <> None /\ exists r, In (r, None) (t_d t) /\ descrs m r <> None /\ reachR (descrs m) y r.
Proof.
  intros Hd. rewrite memz_In. unfold removed_handles. rewrite in_flat_map. split.
  - intros ([r x] & Hi & Hy). unfold is_delete in Hy. cbn [fst snd] in Hy.
    destruct x as [d|]; [contradiction|]. destruct (descrs m r) eqn:Er; [|contradiction].
    apply (subtree_In m r y Hd) in Hy. destruct Hy as [Ey G]. split; [exact Ey|]. exists r. repeat split; [exact Hi|congruence|exact G].
  - intros (Ey & r & Hi & Er & G). exists (r, None). split; [exact Hi|]. unfold is_delete. cbn [fst snd].
    destruct (descrs m r); [|contradiction]. apply (subtree_In m r y Hd). now split.
Qed.

Lemma descrs_of_keys m l : (forall x, In x l -> descrs m x <> None) -> map fst (descrs_of m l) = l.
Proof.
  unfold descrs_of. induction l as [|a l IH]; intros Hx; cbn [flat_map map]; [reflexivity|].
  rewrite map_app, IH by (intros x Hi; apply Hx; now right).
  destruct (descrs m a) eqn:E; [reflexivity|]. exfalso. apply (Hx a); [now left|exact E].
Qed.

(* a path in D' whose links are links of D, or lead to nothing below r, is a path of D once its end lies below r *)
Lemma reach_transfer D D' r :
  (forall x p, par D' x = Some p -> par D x = Some p \/ ~ reachR D p r) ->
  forall y x, reachR D' y x -> reachR D x r -> reachR D y r.
Proof.
  intros Hs y x G. induction G as [|h p x E _ IH]; intros Gx; [exact Gx|].
  destruct (Hs h p E) as [E'|Hn]; [eapply reach_step; [exact E'|exact (IH Gx)]|exfalso; exact (Hn (IH Gx))].
Qed.

(* S: the removed handles, closed under "child of"; a link of D that starts outside S is a link of D' and ends
   outside S *)
Lemma reach_forward D D' (S : H -> Prop) r :
  (forall h p, par D h = Some p -> ~ S h -> par D' h = Some p /\ ~ S p) ->
  forall y, reachR D y r -> ~ S y -> reachR D' y r.
Proof.
  intros Hs y G. induction G as [|h p r E _ IH]; intros Hn; [constructor|].
  destruct (Hs h p E Hn) as [E' Hp]. eapply reach_step; [exact E'|exact (IH Hp)].
Qed.

(* SdcProvider._send_episodic_reports sends, after the DescriptionModificationReport, the episodic metric / alert /
   component / context / operational / waveform reports of the same transaction with the same MdibVersion.  They
   carry states the description report has delivered already: the consumer ignores them. *)
Definition echo_of (m' : mdib) (seq inst : Z) (r : report) : Prop :=
  match r with
  | RState vg items => vg = mkVg (ver m') seq inst /\ forall h s, In (h, s) items -> states m' h = Some s
  | RCtx vg items => vg = mkVg (ver m') seq inst /\ forall h s, In (h, s) items -> cstates m' h = Some s
  | RDescr _ _ => False
  end.

Lemma set_vg_same c : set_vg c (mkVg (cm_ver c) (cm_seq c) (cm_inst c)) = c.
Proof. now destruct c. Qed.

Lemma echo_absorbed c m' r : mirrors c m' -> echo_of m' (cm_seq c) (cm_inst c) r -> receive c r = (c, []).
Proof.
  intros (Md & Ms & Mc & Mv & Mm) He.
  destruct r as [vg items|vg items|vg parts]; cbn [echo_of] in He; [| |contradiction]; destruct He as [-> Hit];
    rewrite receive_accept by (assumption || reflexivity); rewrite <- Mv.
  - rewrite duplicate_state_report_noop; [now rewrite set_vg_same|cbn; lia|].
    intros h s Hi. exists s. split; [rewrite Ms; now apply Hit|lia].
  - rewrite duplicate_ctx_report_noop; [now rewrite set_vg_same|cbn; lia|].
    intros h s Hi. exists s. split; [rewrite Mc; now apply Hit|lia].
Qed.

Lemma echo_all m' rs c : mirrors c m' -> Forall (echo_of m' (cm_seq c) (cm_inst c)) rs -> receive_all c rs = c.
Proof.
  intros Hm. induction 1 as [|r rs Hr _ IH]; cbn [receive_all]; [reflexivity|]. now rewrite (echo_absorbed c m' r Hm Hr).
Qed.

Definition kind_items (m' : mdib) (k : Z) (ts : list (H * state)) : list (H * state) :=
  filter (fun e => match kind_of m' (fst e) with Some k' => Z.eqb k' k | None => false end) ts.
Definition opt_report {A} (items : list A) (r : report) : list report := match items with [] => [] | _ => [r] end.

Definition echo_reports (m' : mdib) (t1 : tx) (seq inst : Z) : list report :=
  let vg := mkVg (ver m') seq inst in
  let st := fun k => opt_report (kind_items m' k (t_s t1)) (RState vg (kind_items m' k (t_s t1))) in
  st K_METRIC ++ st K_ALERT ++ st K_COMP ++
  opt_report (ctx_report_items t1) (RCtx vg (ctx_report_items t1)) ++ st K_OP ++ st K_RT.

Lemma opt_report_all {A} (P : report -> Prop) (items : list A) r : P r -> Forall P (opt_report items r).
Proof. intros Hr. unfold opt_report. destruct items; repeat constructor. exact Hr. Qed.

Lemma echo_reports_ok m' t1 seq inst :
  (forall h s, In (h, s) (t_s t1) -> states m' h = Some s) ->
  (forall h s, In (h, s) (ctx_report_items t1) -> cstates m' h = Some s) ->
  Forall (echo_of m' seq inst) (echo_reports m' t1 seq inst).
Proof.
  intros Hs Hc. unfold echo_reports.
  assert (G : forall k, echo_of m' seq inst (RState (mkVg (ver m') seq inst) (kind_items m' k (t_s t1)))).
  { intros k. split; [reflexivity|]. intros h s Hi. apply Hs. apply filter_In in Hi. apply Hi. }
  repeat (apply Forall_app; split); apply opt_report_all; try apply G. split; [reflexivity|exact Hc].
Qed.

(* One descriptor transaction t on a provider MDIB m.  After the entries [pre] of t_d t the loop of commit_descr
   holds (mi, ti, b, (U, C, D)) with U, C, D the report lists updated / created / deleted so far.  Write
   T := alist_get (U ++ C) for what the loop has written and Dh := map fst D for what it has removed:
     minv T Dh mi      mi is m overlaid with T (ovl) minus Dh, the states and context states of Dh removed too;
     tinv T ti         the state items of ti are those of t, corrected for each descriptor in T (corr_s, corr_c);
     binv pre b U C D  where the entries of U, C, D come from; b = rev (map fst U) is proc.descr_updated.
   pinv is the three together; pinv_step keeps it, tx_run_inv has it after the loop.  Section Final reads the committed
   tables off it (commit_tables: F_d, F_s, F_c) and follows the consumer through the UPDATE, CREATE and DELETE parts
   of the report (linv, dinv) to the same tables (consumer_tables). *)
Section DescrCommit.
  Variables (m : mdib) (t : tx).
  Hypothesis Hm : pm_ok m.
  Hypothesis Ht : dtx_ok m t.

  Definition ovl (T D : H -> option descr) (y : H) : option descr := match T y with Some d => Some d | None => D y end.
  Lemma ovl_keeps T D y : D y <> None -> ovl T D y <> None.
  Proof. intros Ey. unfold ovl. destruct (T y); [discriminate|exact Ey]. Qed.
  (* the pending state / context-state item after _update_corresponding_state has run for every descriptor in T
     (None = no item).  corr_s starts from the item of t; corr_c needs none, a descriptor transaction carries no
     context items (dx_c).  tset T k d is T with the entry (k, d) added. *)
  Definition corr_s (T : H -> option descr) (y : H) : option state :=
    match T y with
    | Some d => if Z.eqb (d_kind d) K_CTX then alist_get (t_s t) y else corr_state m (t_s t) y (d_ver d)
    | None => alist_get (t_s t) y
    end.
  Definition corr_c (T : H -> option descr) (ch : H) : option (option cstate) :=
    match cstates m ch with
    | Some c => match T (c_dh c) with
                | Some d => if Z.eqb (d_kind d) K_CTX then Some (Some (corr_cstate (d_ver d) c)) else None
                | None => None
                end
    | None => None
    end.
  Definition tset (T : H -> option descr) (k : H) (d : descr) : H -> option descr :=
    fun y => if Z.eqb y k then Some d else T y.

  Record minv (T : H -> option descr) (Dh : list H) (mi : mdib) : Prop := {
    mi_d : forall y, descrs mi y = if memz y Dh then None else ovl T (descrs m) y;
    mi_s : forall y, states mi y = if memz y Dh then None else states m y;
    mi_c : forall ch, cstates mi ch = match cstates m ch with
                                      | Some c => if memz (c_dh c) Dh then None else Some c
                                      | None => None end;
    mi_cdom : cdom mi = cdom m;
    mi_ddom : forall y, descrs mi y <> None -> In y (ddom mi);
    mi_ver : ver mi = ver m + 1
  }.

  Record tinv (T : H -> option descr) (ti : tx) : Prop := {
    ti_s : forall y, alist_get (t_s ti) y = corr_s T y;
    ti_sn : NoDup (map fst (t_s ti));
    ti_c : forall ch, alist_get (t_c ti) ch = corr_c T ch;
    ti_cn : NoDup (map fst (t_c ti))
  }.

  Lemma minv_ext T T' Dh mi : (forall y, T y = T' y) -> minv T Dh mi -> minv T' Dh mi.
  Proof.
    intros E [A B C D F G]. constructor; try assumption. intros y. rewrite A. unfold ovl. now rewrite E.
  Qed.
  Lemma tinv_ext T T' ti : (forall y, T y = T' y) -> tinv T ti -> tinv T' ti.
  Proof.
    intros E [B C D F]. constructor; try assumption.
    - intros y. rewrite B. unfold corr_s. now rewrite E.
    - intros ch. rewrite D. unfold corr_c. destruct (cstates m ch); [now rewrite E|reflexivity].
  Qed.

  Lemma minv_set T Dh mi k d : minv T Dh mi -> memz k Dh = false -> minv (tset T k d) Dh (set_descr mi k (Some d)).
  Proof.
    intros [A B C D F G] Hk. constructor; cbn [set_descr descrs states cstates cdom ddom ver]; try assumption.
    - intros y. unfold upd, ovl, tset. rewrite (Z.eqb_sym y k). destruct (Z.eqb_spec k y) as [<-|Hne].
      + now rewrite Hk.
      + rewrite A. reflexivity.
    - intros y Hy. apply add_dom_In. unfold upd in Hy. destruct (Z.eqb_spec k y) as [E|Hne]; [now left|right; now apply F].
  Qed.

  Lemma minv_rm T Dh mi l : minv T Dh mi -> minv T (Dh ++ l) (fold_left rm_one l mi).
  Proof.
    intros [A0 B0 C0 D0 F0 G0]. constructor.
    - intros y. rewrite rm_list_descrs, A0, memz_app. destruct (memz y Dh), (memz y l); reflexivity.
    - intros y. rewrite rm_list_states, B0, memz_app. destruct (memz y Dh), (memz y l); reflexivity.
    - intros ch. pose proof (rm_list_cs l mi ch) as E. rewrite C0, D0 in E.
      destruct (cstates m ch) as [c|] eqn:E0; [|now injection E]. rewrite memz_app.
      destruct (memz (c_dh c) Dh); [now injection E|]. cbn [orb].
      assert (Hin : memz ch (cdom m) = true) by (apply memz_In, (pm_cd _ Hm); congruence).
      rewrite Hin, andb_true_r in E. destruct (memz (c_dh c) l); now injection E.
    - now rewrite rm_list_cdom.
    - intros y Hy. apply (rm_list_ddom l mi), F0. rewrite rm_list_descrs in Hy. destruct (memz y l); [contradiction|exact Hy].
    - rewrite fold_rm_one_ver. exact G0.
  Qed.

  Lemma tinv_ucs T T0 Dh mi ti k d :
    minv T0 Dh mi -> tinv T ti -> T k = None -> memz k Dh = false ->
    tinv (tset T k d) (upd_corr_state mi ti k (d_ver d) (d_kind d)).
  Proof.
    intros Hi [B C D F] HT Hk. constructor.
    - intros y. rewrite Proofs_Descr.ucs_ts, Proofs_Descr.ucs_s_get. unfold corr_s, tset.
      destruct (Z.eqb_spec y k) as [->|Hne]; [|rewrite andb_false_r; apply B].
      rewrite andb_true_r, B. unfold corr_s. rewrite HT. destruct (d_kind d =? K_CTX); [reflexivity|].
      unfold corr_state. now rewrite (mi_s _ _ _ Hi), Hk.
    - rewrite Proofs_Descr.ucs_ts. now apply Proofs_Descr.ucs_s_nodup.
    - intros ch. rewrite ucs_tc by (rewrite (mi_cdom _ _ _ Hi); apply (pm_nd _ Hm)).
      rewrite D. unfold ucs_val, corr_c, tset. rewrite (mi_c _ _ _ Hi), (mi_cdom _ _ _ Hi).
      destruct (cstates m ch) as [c0|] eqn:E0; [|now destruct (_ && _)].
      assert (Hin : memz ch (cdom m) = true) by (apply memz_In, (pm_cd _ Hm); congruence). rewrite Hin, andb_true_r.
      destruct (Z.eqb_spec (c_dh c0) k) as [Ek|Nk].
      + rewrite Ek, Hk, HT. rewrite Ek, Z.eqb_refl. now destruct (d_kind d =? K_CTX).
      + destruct (memz (c_dh c0) Dh); [now destruct (d_kind d =? K_CTX)|].
        destruct (Z.eqb_spec (c_dh c0) k); [contradiction|]. now destruct (d_kind d =? K_CTX).
    - exact (proj1 (Proofs_Descr.ucs_tc_inv (fun _ => True) mi k (d_ver d) (d_kind d) ti F (fun _ _ => I) (fun _ _ _ _ => I))).
  Qed.

  (* the three lists commit_descr hands to process_item *)
  Notation cr := (map fst (filter (is_create m) (t_d t))).
  Notation up := (map fst (filter (is_update m) (t_d t))).
  Notation de := (removed_handles m t).

  Record binv (pre : list (H * option descr)) (b : list H) (U C D : list (H * descr)) : Prop := {
    bi_b : b = rev (map fst U);
    bi_nd : NoDup (map fst (U ++ C));
    (* an entry of U replaces an existing descriptor outside every removed subtree; it is an update entry of pre
       or - second disjunct - a parent bumped by a creation or removal, which the transaction does not itself write *)
    bi_U : forall h d, In (h, d) U ->
             (exists o, descrs m h = Some o /\ d_parent d = d_parent o) /\ undel m t h /\
             (In (h, Some d) pre \/ (memz h cr = false /\ memz h up = false));
    bi_C : forall h d, In (h, d) C -> In (h, Some d) pre /\ descrs m h = None;
    (* conversely, every Some-entry of pre is listed: in C if the handle is new, in U if it exists *)
    bi_Cc : forall h d, In (h, Some d) pre -> descrs m h = None -> In (h, d) C;
    bi_Uc : forall h d, In (h, Some d) pre -> descrs m h <> None -> In (h, d) U;
    (* D holds exactly what lies below a removal entry of pre *)
    bi_D : forall y, In y (map fst D) <-> descrs m y <> None /\ exists r, In (r, None) pre /\ reachR (descrs m) y r
  }.

  Lemma get_ins_U (U C : list (H * descr)) k d : ~ In k (map fst (U ++ C)) ->
    forall y, alist_get ((U ++ [(k, d)]) ++ C) y = tset (alist_get (U ++ C)) k d y.
  Proof.
    intros Hk y. rewrite <- app_assoc. apply alist_get_insert. intros Hi. apply Hk. rewrite map_app. apply in_or_app. now left.
  Qed.
  Lemma get_ins_C (U C : list (H * descr)) k d : ~ In k (map fst (U ++ C)) ->
    forall y, alist_get (U ++ (C ++ [(k, d)])) y = tset (alist_get (U ++ C)) k d y.
  Proof. intros Hk y. rewrite app_assoc. now apply alist_get_snoc. Qed.
  Lemma nodup_ins_U (U C : list (H * descr)) k d : ~ In k (map fst (U ++ C)) -> NoDup (map fst (U ++ C)) ->
    NoDup (map fst ((U ++ [(k, d)]) ++ C)).
  Proof.
    intros Hk Hn. rewrite <- app_assoc, map_app. cbn [app map fst]. apply (NoDup_Add (Add_app k (map fst U) (map fst C))).
    rewrite <- map_app. now split.
  Qed.
  Lemma nodup_ins_C (U C : list (H * descr)) k d : ~ In k (map fst (U ++ C)) -> NoDup (map fst (U ++ C)) ->
    NoDup (map fst (U ++ (C ++ [(k, d)]))).
  Proof. intros Hk Hn. rewrite app_assoc, map_app. cbn [map fst]. now apply NoDup_snoc. Qed.

  Lemma root_exists r : In (r, None) (t_d t) -> exists o, descrs m r = Some o.
  Proof. intros Hr. pose proof (dx_del _ _ Ht r Hr) as E. destruct (descrs m r) as [o|]; [now exists o|contradiction]. Qed.

  Lemma new_not_below r y : In (r, None) (t_d t) -> descrs m y = None -> ~ reachR (descrs m) y r.
  Proof.
    intros Hr En G. apply reachR_below, (Proofs_Descr.below_absent _ _ _ En) in G. subst y.
    destruct (root_exists r Hr) as (o & Eo). congruence.
  Qed.

  Lemma kept_undel x : memz x de = false -> undel m t x.
  Proof.
    intros En r Hr G. destruct (descrs m x) eqn:Ex; [|exact (new_not_below r x Hr Ex G)].
    assert (E : memz x de = true); [|congruence].
    apply removed_handles_spec; [apply (pm_dd _ Hm)|]. split; [congruence|]. exists r. split; [exact Hr|]. split; [|exact G].
    now apply (dx_del _ _ Ht).
  Qed.

  (* what the conflict check of process_transaction gives *)
  Lemma nc_item h d : In (h, Some d) (t_d t) -> undel m t h /\ forall p, d_parent d = Some p -> undel m t p.
  Proof.
    intros Hin. pose proof (proj1 (existsb_false _ _) (dx_nc _ _ Ht) (h, Some d) Hin) as E. cbn [fst snd] in E.
    apply orb_false_elim in E. destruct E as [E1 E2]. split; [now apply kept_undel|].
    intros p Ep. apply kept_undel. now rewrite Ep in E2.
  Qed.

  Lemma undel_notin_D pre b U C D p :
    binv pre b U C D -> incl pre (t_d t) -> undel m t p -> memz p (map fst D) = false.
  Proof.
    intros Hb Hinc Hu. apply memz_false. intros Hy. apply (bi_D _ _ _ _ _ Hb) in Hy. destruct Hy as (_ & r & Hr & G).
    exact (Hu r (Hinc _ Hr) G).
  Qed.

  Section AtRoot.
    Variables (pre : list (H * option descr)) (b : list H) (U C D : list (H * descr)) (r : H).
    Hypothesis Hb : binv pre b U C D.
    Hypothesis Hinc : incl pre (t_d t).
    Hypothesis Hr : In (r, None) (t_d t).

    (* an entry of the overlay replaces a descriptor that stays, keeping its parent, or is new *)
    Lemma written_cases y d : alist_get (U ++ C) y = Some d ->
      (exists o, descrs m y = Some o /\ d_parent d = d_parent o /\ undel m t y) \/
      (descrs m y = None /\ In (y, Some d) pre).
    Proof.
      intros EL. apply alist_get_some_in in EL. apply in_app_or in EL. destruct EL as [HU|HC].
      - destruct (bi_U _ _ _ _ _ Hb _ _ HU) as ((o & Eo & Ep) & Hu & _). left. now exists o.
      - destruct (bi_C _ _ _ _ _ Hb _ _ HC) as [Hpre En]. right. now split.
    Qed.

    Lemma written_not_deleted y d : alist_get (U ++ C) y = Some d -> memz y (map fst D) = false.
    Proof.
      intros EL. destruct (written_cases y d EL) as [(o & _ & _ & Hu)|[En _]]; [exact (undel_notin_D _ _ _ _ _ y Hb Hinc Hu)|].
      apply memz_false. intros Hy. apply (bi_D _ _ _ _ _ Hb) in Hy. now destruct Hy.
    Qed.

    (* what has been removed so far is closed under "child of" *)
    Lemma Dh_closed h p : par (descrs m) h = Some p -> In p (map fst D) -> In h (map fst D).
    Proof.
      intros E Hp. apply (bi_D _ _ _ _ _ Hb) in Hp. destruct Hp as (Ep & r' & Hr' & G).
      apply (bi_D _ _ _ _ _ Hb). split; [unfold par in E; destruct (descrs m h); discriminate|].
      exists r'. split; [exact Hr'|]. eapply reach_step; eassumption.
    Qed.

    (* a table that is the overlay without some removed handles (the provider MDIB inside the loop, the consumer
       between two DELETE parts): its parent links are those of m or lead outside every removed subtree, and what
       it holds below r is a descriptor of m *)
    Section Table.
      Variables (Tb : H -> option descr) (R : list H).
      Hypothesis HTb : forall y, Tb y = if memz y R then None else ovl (alist_get (U ++ C)) (descrs m) y.

      Lemma ovl_par_back x p : par Tb x = Some p -> par (descrs m) x = Some p \/ ~ reachR (descrs m) p r.
      Proof.
        unfold par at 1. rewrite HTb. destruct (memz x R); [discriminate|]. unfold ovl.
        destruct (alist_get (U ++ C) x) as [d|] eqn:EL; [|intros E; now left]. intros Ep.
        destruct (written_cases x d EL) as [(o & Eo & Ep' & _)|[_ Hpre]].
        - left. unfold par. rewrite Eo. congruence.
        - right. exact (proj2 (nc_item x d (Hinc _ Hpre)) p Ep r Hr).
      Qed.

      Lemma ovl_live y : Tb y <> None -> reachR (descrs m) y r -> descrs m y <> None.
      Proof.
        rewrite HTb. destruct (memz y R); [contradiction|]. unfold ovl. intros Ey G.
        destruct (alist_get (U ++ C) y) as [d|] eqn:EL; [|exact Ey].
        destruct (written_cases y d EL) as [(o & Eo & _)|[En _]]; [congruence|]. exfalso. exact (new_not_below r y Hr En G).
      Qed.
    End Table.

    Variable mi : mdib.
    Hypothesis Hi : minv (alist_get (U ++ C)) (map fst D) mi.

    Lemma mi_par_fwd h p : par (descrs m) h = Some p -> ~ In h (map fst D) ->
      par (descrs mi) h = Some p /\ ~ In p (map fst D).
    Proof.
      intros E Hn. split; [|intros Hp; apply Hn; eapply Dh_closed; eassumption].
      unfold par. rewrite (mi_d _ _ _ Hi). apply memz_false in Hn. rewrite Hn. unfold ovl.
      destruct (alist_get (U ++ C) h) as [d|] eqn:EL; [|exact E]. unfold par in E.
      destruct (written_cases h d EL) as [(o & Eo & Ep' & _)|[En _]]; [rewrite Eo in E; congruence|now rewrite En in E].
    Qed.

    (* the subtree found at the time of the removal: what lies below r in the MDIB before the commit, minus what
       went already with an earlier removal *)
    Lemma sub_exact y :
      In y (subtree mi r) <-> descrs m y <> None /\ reachR (descrs m) y r /\ ~ In y (map fst D).
    Proof.
      rewrite subtree_In by (apply (mi_ddom _ _ _ Hi)). split.
      - intros [Ey G].
        apply (reach_transfer (descrs m) _ r (ovl_par_back _ _ (mi_d _ _ _ Hi))) with (x := r) in G; [|constructor].
        split; [exact (ovl_live _ _ (mi_d _ _ _ Hi) y Ey G)|]. split; [exact G|].
        rewrite (mi_d _ _ _ Hi) in Ey. apply memz_false. now destruct (memz y (map fst D)).
      - intros (Ey & G & Hn). split.
        + rewrite (mi_d _ _ _ Hi). apply memz_false in Hn. rewrite Hn. unfold ovl.
          destruct (alist_get (U ++ C) y); [discriminate|exact Ey].
        + exact (reach_forward (descrs m) (descrs mi) (fun x => In x (map fst D)) r mi_par_fwd y G Hn).
    Qed.
  End AtRoot.

  Lemma pir_upd mi ti b U C D h d o : descrs mi h = Some o ->
    process_item_r cr up de (mi, ti, b, (U, C, D)) (h, Some d) =
    (set_descr mi h (Some d), upd_corr_state (set_descr mi h (Some d)) ti h (d_ver d) (d_kind d), h :: b,
     (U ++ [(h, d)], C, D)).
  Proof. intros E. unfold process_item_r, process_item, item_lists. cbn [fst snd]. rewrite E, !app_nil_r. reflexivity. Qed.

  Lemma pir_crt mi ti b U C D h d : descrs mi h = None ->
    process_item_r cr up de (mi, ti, b, (U, C, D)) (h, Some d) =
    let m1 := set_descr mi h (Some d) in
    let plain := (m1, upd_corr_state m1 ti h (d_ver d) (d_kind d), b, (U, C ++ [(h, d)], D)) in
    match d_parent d with
    | Some p =>
        if memz p cr || memz p up || memz p b then plain else
        match descrs m1 p with
        | Some o =>
            let m2 := set_descr m1 p (Some (bump_d o)) in
            let t2 := upd_corr_state m2 ti p (d_ver (bump_d o)) (d_kind (bump_d o)) in
            (m2, upd_corr_state m2 t2 h (d_ver d) (d_kind d), p :: b, (U ++ [(p, bump_d o)], C ++ [(h, d)], D))
        | None => plain
        end
    | None => plain
    end.
  Proof.
    intros E. unfold process_item_r, process_item, item_lists. cbn [fst snd]. rewrite E. cbv zeta.
    destruct (d_parent d) as [p|]; [|now rewrite !app_nil_r]. unfold parent_upd, bump_parent.
    destruct (memz p cr || memz p up || memz p b); [now rewrite !app_nil_r|].
    destruct (descrs (set_descr mi h (Some d)) p) as [o|]; now rewrite !app_nil_r.
  Qed.

  Lemma pir_del mi ti b U C D h o : descrs mi h = Some o ->
    process_item_r cr up de (mi, ti, b, (U, C, D)) (h, None) =
    let l := subtree mi h in
    let m1 := fold_left rm_one l mi in
    let plain := (m1, ti, b, (U, C, D ++ descrs_of mi l)) in
    match d_parent o with
    | Some p =>
        if memz p de || memz p up || memz p b then plain else
        match descrs m1 p with
        | Some op =>
            let m2 := set_descr m1 p (Some (bump_d op)) in
            (m2, upd_corr_state m2 ti p (d_ver (bump_d op)) (d_kind (bump_d op)), p :: b,
             (U ++ [(p, bump_d op)], C, D ++ descrs_of mi l))
        | None => plain
        end
    | None => plain
    end.
  Proof.
    intros E. unfold process_item_r, process_item, item_lists. cbn [fst snd]. rewrite E. cbv zeta.
    destruct (d_parent o) as [p|]; [|now rewrite !app_nil_r]. unfold parent_upd, bump_parent.
    destruct (memz p de || memz p up || memz p b); [now rewrite !app_nil_r|].
    destruct (descrs (fold_left rm_one (subtree mi h) mi) p) as [op|]; now rewrite !app_nil_r.
  Qed.

  Lemma pir_skip mi ti b U C D h : descrs mi h = None ->
    process_item_r cr up de (mi, ti, b, (U, C, D)) (h, None) = (mi, ti, b, (U, C, D)).
  Proof. intros E. unfold process_item_r, process_item, item_lists. cbn [fst snd]. rewrite E, !app_nil_r. reflexivity. Qed.

  Lemma binv_bp pre b U C D p o :
    binv pre b U C D -> descrs m p = Some o -> undel m t p -> memz p cr = false -> memz p up = false ->
    ~ In p (map fst (U ++ C)) -> binv pre (p :: b) (U ++ [(p, bump_d o)]) C D.
  Proof.
    intros [B1 B2 B3 B4 B5 B6 B7] Eo Hu Hc Hup Hk. constructor; try assumption.
    - rewrite map_app. cbn [map fst]. rewrite rev_unit. now rewrite B1.
    - now apply nodup_ins_U.
    - intros h d Hi. apply in_app_single in Hi. destruct Hi as [Hi|[= -> ->]]; [now apply B3|].
      split; [exists o; repeat split; assumption|]. split; [assumption|]. right. now split.
    - intros h d Hi Hn. apply in_app_single. left. now apply B6.
  Qed.

  Lemma binv_up pre b U C D h d o :
    binv pre b U C D -> In (h, Some d) (t_d t) -> descrs m h = Some o ->
    ~ In h (map fst (U ++ C)) -> binv (pre ++ [(h, Some d)]) (h :: b) (U ++ [(h, d)]) C D.
  Proof.
    intros [B1 B2 B3 B4 B5 B6 B7] Hin Eo Hk.
    destruct (dx_upd _ _ Ht h d o Hin Eo) as (Ep & Ek).
    pose proof (proj1 (nc_item h d Hin)) as Hu. constructor.
    - rewrite map_app. cbn [map fst]. rewrite rev_unit. now rewrite B1.
    - now apply nodup_ins_U.
    - intros h0 d0 Hi. apply in_app_single in Hi. destruct Hi as [Hi|[= -> ->]].
      + destruct (B3 _ _ Hi) as (X & Y & [Z|Z]); (split; [exact X|]); (split; [exact Y|]); [left; apply in_app_single; now left|now right].
      + split; [exists o; repeat split; assumption|]. split; [assumption|]. left. apply in_app_single. now right.
    - intros h0 d0 Hi. destruct (B4 _ _ Hi) as [X Y]. split; [apply in_app_single; now left|exact Y].
    - intros h0 d0 Hi Hn. apply in_app_single in Hi. destruct Hi as [Hi|[= -> ->]]; [now apply B5|congruence].
    - intros h0 d0 Hi Hn. apply in_app_single in Hi. apply in_app_single. destruct Hi as [Hi|[= -> ->]]; [left; now apply B6|now right].
    - intros y. rewrite B7. split; intros (X & r & Hr & G); (split; [exact X|]); exists r; (split; [|exact G]).
      + apply in_app_single. now left.
      + apply in_app_single in Hr. destruct Hr as [Hr|Hr]; [exact Hr|discriminate].
  Qed.

  Lemma binv_cr pre b U C D h d :
    binv pre b U C D -> descrs m h = None ->
    ~ In h (map fst (U ++ C)) -> binv (pre ++ [(h, Some d)]) b U (C ++ [(h, d)]) D.
  Proof.
    intros [B1 B2 B3 B4 B5 B6 B7] En Hk. constructor.
    - exact B1.
    - now apply nodup_ins_C.
    - intros h0 d0 Hi. destruct (B3 _ _ Hi) as (X & Y & [Z|Z]); (split; [exact X|]); (split; [exact Y|]);
        [left; apply in_app_single; now left|now right].
    - intros h0 d0 Hi. apply in_app_single in Hi. destruct Hi as [Hi|[= -> ->]].
      + destruct (B4 _ _ Hi) as [X Y]. split; [apply in_app_single; now left|exact Y].
      + split; [apply in_app_single; now right|exact En].
    - intros h0 d0 Hi Hn. apply in_app_single in Hi. apply in_app_single. destruct Hi as [Hi|[= -> ->]]; [left; now apply B5|now right].
    - intros h0 d0 Hi Hn. apply in_app_single in Hi. destruct Hi as [Hi|[= -> ->]]; [now apply B6|congruence].
    - intros y. rewrite B7. split; intros (X & r & Hr & G); (split; [exact X|]); exists r; (split; [|exact G]).
      + apply in_app_single. now left.
      + apply in_app_single in Hr. destruct Hr as [Hr|Hr]; [exact Hr|discriminate].
  Qed.

  Lemma binv_de pre b U C D h D' :
    binv pre b U C D ->
    (forall y, In y (map fst D') <-> descrs m y <> None /\ reachR (descrs m) y h /\ ~ In y (map fst D)) ->
    binv (pre ++ [(h, None)]) b U C (D ++ D').
  Proof.
    intros [B1 B2 B3 B4 B5 B6 B7] HD. constructor; try assumption.
    - intros h0 d0 Hi. destruct (B3 _ _ Hi) as (X & Y & [Z|Z]); (split; [exact X|]); (split; [exact Y|]);
        [left; apply in_app_single; now left|now right].
    - intros h0 d0 Hi. destruct (B4 _ _ Hi) as [X Y]. split; [apply in_app_single; now left|exact Y].
    - intros h0 d0 Hi Hn. apply in_app_single in Hi. destruct Hi as [Hi|Hi]; [now apply B5|discriminate].
    - intros h0 d0 Hi Hn. apply in_app_single in Hi. destruct Hi as [Hi|Hi]; [now apply B6|discriminate].
    - intros y. rewrite map_app, in_app_iff, HD. split.
      + intros [Hy|(X & G & _)].
        * apply B7 in Hy. destruct Hy as (X & r & Hr & G). split; [exact X|]. exists r. split; [apply in_app_single; now left|exact G].
        * split; [exact X|]. exists h. split; [apply in_app_single; now right|exact G].
      + intros (X & r & Hr & G). apply in_app_single in Hr. destruct Hr as [Hr|[= ->]].
        * left. apply B7. split; [exact X|]. now exists r.
        * destruct (memz y (map fst D)) eqn:Em; [left; now apply memz_In|right]. apply memz_false in Em. now repeat split.
  Qed.

  (* the entry of a descriptor that went already with an ancestor's subtree *)
  Lemma binv_skip pre b U C D h :
    binv pre b U C D -> In h (map fst D) -> binv (pre ++ [(h, None)]) b U C D.
  Proof.
    intros Hb Hh. replace D with (D ++ []) by apply app_nil_r. apply binv_de; [exact Hb|].
    intros y. cbn [map]. split; [intros []|]. intros (X & G & Hn). apply Hn.
    apply (bi_D _ _ _ _ _ Hb) in Hh. destruct Hh as (_ & r & Hr & G').
    apply (bi_D _ _ _ _ _ Hb). split; [exact X|]. exists r. split; [exact Hr|]. eapply reachR_trans; eassumption.
  Qed.

  Definition pinv (pre : list (H * option descr)) (st : pstate) : Prop :=
    let '(mi, ti, b, (U, C, D)) := st in
    minv (alist_get (U ++ C)) (map fst D) mi /\ tinv (alist_get (U ++ C)) ti /\ binv pre b U C D.

  (* the parent that a created or removed descriptor bumps has no entry in the lists yet *)
  Lemma parent_fresh pre b U C D p :
    binv pre b U C D -> incl pre (t_d t) -> memz p cr = false -> memz p b = false -> ~ In p (map fst (U ++ C)).
  Proof.
    intros Hb Hinc Epc Epb. rewrite map_app. intros Hk. apply in_app_or in Hk. destruct Hk as [Hk|Hk].
    - apply memz_false in Epb. apply Epb. rewrite (bi_b _ _ _ _ _ Hb). now apply -> in_rev.
    - apply in_map_iff in Hk. destruct Hk as ([p0 d0] & E0 & Hk). cbn in E0. subst p0.
      destruct (bi_C _ _ _ _ _ Hb _ _ Hk) as [Hpre En].
      assert (memz p cr = true) by (apply Proofs_Descr.cr_spec; exists d0; split; [apply Hinc, Hpre|exact En]). congruence.
  Qed.

  (* nor has the entry that is processed next *)
  Lemma entry_fresh pre b U C D h x :
    binv pre b U C D -> In (h, x) (t_d t) -> ~ In h (map fst pre) -> ~ In h (map fst (U ++ C)).
  Proof.
    intros Hb Hin Hnp Hk. rewrite map_app in Hk. apply in_app_or in Hk.
    destruct Hk as [Hk|Hk]; apply in_map_iff in Hk; destruct Hk as ([h0 d0] & E0 & Hk); cbn in E0; subst h0.
    - destruct (bi_U _ _ _ _ _ Hb _ _ Hk) as (_ & Hu & [Hpre|[Hc Hup]]); [apply Hnp; now apply (in_map fst) in Hpre|].
      destruct x as [d|]; [|apply (Hu h Hin); constructor]. destruct (descrs m h) eqn:Eo.
      + assert (memz h up = true) by (apply Proofs_Descr.up_spec; exists d; split; [exact Hin|congruence]). congruence.
      + assert (memz h cr = true) by (apply Proofs_Descr.cr_spec; exists d; now split). congruence.
    - destruct (bi_C _ _ _ _ _ Hb _ _ Hk) as [Hpre _]. apply Hnp. now apply (in_map fst) in Hpre.
  Qed.

  Lemma minv_untouched T Dh mi p : minv T Dh mi -> T p = None -> descrs mi p = if memz p Dh then None else descrs m p.
  Proof. intros Hi E. rewrite (mi_d _ _ _ Hi). unfold ovl. now rewrite E. Qed.

  (* set_descr of a fresh handle followed by _update_corresponding_state for it *)
  Lemma pinv_set T T' Dh mi ti k d :
    (forall y, T' y = tset T k d y) -> minv T Dh mi -> tinv T ti -> T k = None -> memz k Dh = false ->
    minv T' Dh (set_descr mi k (Some d)) /\
    tinv T' (upd_corr_state (set_descr mi k (Some d)) ti k (d_ver d) (d_kind d)).
  Proof.
    intros E Hi Hti HT Hk. pose proof (minv_set T Dh mi k d Hi Hk) as Hi'.
    split; [exact (minv_ext _ _ _ _ (fun y => eq_sym (E y)) Hi')|].
    apply (tinv_ext (tset T k d)); [intros y; symmetry; apply E|]. eapply tinv_ucs; eassumption.
  Qed.

  Lemma pinv_step pre e post st :
    pre ++ e :: post = t_d t -> pinv pre st -> pinv (pre ++ [e]) (process_item_r cr up de st e).
  Proof.
    intros Hsplit Hp. destruct st as [[[mi ti] b] [[U C] D]]. destruct Hp as (Hi & Hti & Hb). destruct e as [h x].
    assert (Hin : In (h, x) (t_d t)) by (rewrite <- Hsplit; apply in_or_app; right; now left).
    assert (Hinc : incl pre (t_d t)) by (intros z Hz; rewrite <- Hsplit; apply in_or_app; now left).
    assert (HL : ~ In h (map fst (U ++ C))).
    { apply (entry_fresh pre b U C D h x Hb Hin). pose proof (dx_nd _ _ Ht) as N. rewrite <- Hsplit in N.
      exact (nodup_mid pre post (h, x) N). }
    assert (HT : alist_get (U ++ C) h = None) by now apply alist_get_none_notin.
    pose proof (minv_untouched _ _ _ h Hi HT) as Edi.
    destruct x as [d|].
    - pose proof (undel_notin_D _ _ _ _ _ h Hb Hinc (proj1 (nc_item h d Hin))) as HD.
      rewrite HD in Edi. destruct (descrs m h) as [o|] eqn:Eo.
      + (* update *)
        rewrite (pir_upd _ _ _ _ _ _ _ _ o) by congruence.
        destruct (pinv_set _ _ _ mi ti h d (get_ins_U U C h d HL) Hi Hti HT HD) as [Hm1 Ht1].
        split; [exact Hm1|]. split; [exact Ht1|]. eapply binv_up; eassumption.
      + (* create *)
        rewrite pir_crt by congruence. cbv zeta.
        set (m1 := set_descr mi h (Some d)).
        destruct (pinv_set _ _ _ mi ti h d (get_ins_C U C h d HL) Hi Hti HT HD) as [Hm1 Ht1]. fold m1 in Hm1, Ht1.
        assert (Plain : pinv (pre ++ [(h, Some d)])
                          (m1, upd_corr_state m1 ti h (d_ver d) (d_kind d), b, (U, C ++ [(h, d)], D))).
        { split; [exact Hm1|]. split; [exact Ht1|now apply binv_cr]. }
        destruct (d_parent d) as [p|] eqn:Ep; [|exact Plain].
        destruct (memz p cr || memz p up || memz p b) eqn:Esk; [exact Plain|].
        rewrite !orb_false_iff in Esk. destruct Esk as ((Epc & Epu) & Epb).
        assert (Hup : undel m t p) by exact (proj2 (nc_item h d Hin) p Ep).
        assert (Hph : p <> h).
        { intros ->. assert (memz h cr = true) by (apply Proofs_Descr.cr_spec; exists d; now split). congruence. }
        pose proof (parent_fresh _ _ _ _ _ p Hb Hinc Epc Epb) as HpL.
        pose proof (undel_notin_D _ _ _ _ _ p Hb Hinc Hup) as HpD.
        assert (HpL2 : ~ In p (map fst (U ++ (C ++ [(h, d)])))).
        { rewrite app_assoc, map_app. cbn [map fst]. intros Hk. apply in_app_or in Hk.
          destruct Hk as [Hk|[Hk|[]]]; [now apply HpL|congruence]. }
        rewrite (minv_untouched _ _ _ p Hm1), HpD by now apply alist_get_none_notin.
        destruct (descrs m p) as [o|] eqn:Eop; [|exact Plain].
        set (d' := bump_d o). set (m2 := set_descr m1 p (Some d')).
        (* the model writes h, then p, then corrects the states of p, then those of h *)
        assert (Hm2 : minv (alist_get ((U ++ [(p, d')]) ++ (C ++ [(h, d)]))) (map fst D) m2).
        { eapply minv_ext; [intros y; symmetry; apply get_ins_U; exact HpL2|]. now apply minv_set. }
        assert (HhL2 : ~ In h (map fst ((U ++ [(p, d')]) ++ C))).
        { rewrite <- app_assoc, map_app. cbn [app map fst]. intros Hk. apply in_app_or in Hk.
          destruct Hk as [Hk|[Hk|Hk]]; [|congruence|]; apply HL; rewrite map_app; apply in_or_app; [now left|now right]. }
        split; [exact Hm2|]. split.
        * eapply tinv_ext; [intros y; symmetry; apply get_ins_C; exact HhL2|].
          eapply tinv_ucs; [exact Hm2| |now apply alist_get_none_notin|exact HD].
          eapply tinv_ext; [intros y; symmetry; apply get_ins_U; exact HpL|].
          eapply tinv_ucs; [exact Hm2|exact Hti|now apply alist_get_none_notin|exact HpD].
        * apply binv_cr; [|exact Eo|exact HhL2]. now apply binv_bp.
    - (* delete *)
      destruct (root_exists h Hin) as (o & Eo). rewrite Eo in Edi.
      destruct (memz h (map fst D)) eqn:Eh.
      { (* went already with an ancestor's subtree: skipped *)
        rewrite pir_skip by exact Edi.
        split; [exact Hi|]. split; [exact Hti|]. apply binv_skip; [exact Hb|now apply memz_In]. }
      rewrite (pir_del _ _ _ _ _ _ _ o) by exact Edi. cbv zeta.
      set (l := subtree mi h). set (m1 := fold_left rm_one l mi).
      assert (Hkeys : map fst (descrs_of mi l) = l).
      { apply descrs_of_keys. intros x Hx. subst l. unfold subtree in Hx. apply filter_In in Hx.
        destruct Hx as [_ Hx]. destruct (descrs mi x); discriminate. }
      assert (Hm1 : minv (alist_get (U ++ C)) (map fst (D ++ descrs_of mi l)) m1).
      { rewrite map_app, Hkeys. now apply minv_rm. }
      assert (Hb1 : binv (pre ++ [(h, None)]) b U C (D ++ descrs_of mi l)).
      { apply binv_de; [exact Hb|]. rewrite Hkeys. exact (sub_exact pre b U C D h Hb Hinc Hin mi Hi). }
      assert (Plain : pinv (pre ++ [(h, None)]) (m1, ti, b, (U, C, D ++ descrs_of mi l))).
      { split; [exact Hm1|]. split; [exact Hti|exact Hb1]. }
      destruct (d_parent o) as [p|] eqn:Ep; [|exact Plain].
      destruct (memz p de || memz p up || memz p b) eqn:Esk; [exact Plain|].
      rewrite !orb_false_iff in Esk. destruct Esk as ((Epd & Epu) & Epb).
      assert (Epc : memz p cr = false) by exact (dx_par _ _ Ht h o p Hin Eo Ep).
      pose proof (parent_fresh _ _ _ _ _ p Hb Hinc Epc Epb) as HpL.
      assert (HpT : alist_get (U ++ C) p = None) by now apply alist_get_none_notin.
      pose proof (minv_untouched _ _ _ p Hm1 HpT) as Ep1. fold m1.
      assert (Hinc1 : incl (pre ++ [(h, None)]) (t_d t)).
      { intros z Hz. apply in_app_single in Hz. destruct Hz as [Hz| ->]; [now apply Hinc|exact Hin]. }
      pose proof (kept_undel p Epd) as Hup. pose proof (undel_notin_D _ _ _ _ _ p Hb1 Hinc1 Hup) as HpD.
      rewrite HpD in Ep1. rewrite Ep1. destruct (descrs m p) as [op|] eqn:Eop; [|exact Plain].
      destruct (pinv_set _ _ _ m1 ti p (bump_d op) (get_ins_U U C p (bump_d op) HpL) Hm1 Hti HpT HpD) as [Hm2 Ht2].
      split; [exact Hm2|]. split; [exact Ht2|now apply binv_bp].
  Qed.

  Lemma pinv_fold post : forall pre st,
    pre ++ post = t_d t -> pinv pre st -> pinv (pre ++ post) (fold_left (process_item_r cr up de) post st).
  Proof.
    induction post as [|e post IH]; intros pre st E Hp; cbn [fold_left]; [now rewrite app_nil_r|].
    replace (pre ++ e :: post) with ((pre ++ [e]) ++ post) by (rewrite <- app_assoc; reflexivity).
    apply IH; [rewrite <- app_assoc; exact E|]. eapply pinv_step; eassumption.
  Qed.

  Lemma tx_run_inv : pinv (t_d t) (tx_run m t).
  Proof.
    apply (pinv_fold (t_d t) [] (bump_ver m, t, [], ([], [], []))); [reflexivity|].
    split; [|split].
    - constructor.
      + intros y. reflexivity.
      + intros y. reflexivity.
      + intros ch. cbn. destruct (cstates m ch); reflexivity.
      + reflexivity.
      + exact (pm_dd _ Hm).
      + reflexivity.
    - constructor; try reflexivity; try apply (dx_ns _ _ Ht).
      + intros ch. rewrite (dx_c _ _ Ht). unfold corr_c. cbn. destruct (cstates m ch); reflexivity.
      + rewrite (dx_c _ _ Ht). constructor.
    - constructor; cbn; try reflexivity; try constructor; try contradiction; try (intros; contradiction).
      intros (_ & r & [] & _).
  Qed.

  Section Final.
    Variables (m1 : mdib) (t1 : tx) (b : list H) (U C D : list (H * descr)).
    Hypothesis Hrun : pinv (t_d t) (m1, t1, b, (U, C, D)).

    Let Hi : minv (alist_get (U ++ C)) (map fst D) m1 := proj1 Hrun.
    Let Hti : tinv (alist_get (U ++ C)) t1 := proj1 (proj2 Hrun).
    Let Hb : binv (t_d t) b U C D := proj2 (proj2 Hrun).

    (* the committed tables in closed form; provider (commit_tables) and consumer (consumer_tables) are each shown
       equal to them *)
    Definition F_d (y : H) : option descr :=
      if memz y (map fst D) then None else ovl (alist_get (U ++ C)) (descrs m) y.
    Definition F_s (y : H) : option state :=
      match alist_get (t_s t1) y with
      | Some s => Some s
      | None => if memz y (map fst D) then None else states m y
      end.
    Definition F_c (ch : H) : option cstate :=
      match alist_get (t_c t1) ch with
      | Some x => x
      | None => match cstates m ch with
                | Some c => if memz (c_dh c) (map fst D) then None else Some c
                | None => None
                end
      end.

    Lemma commit_tables :
      let m' := handle_state_updates m1 t1 in
      (forall y, descrs m' y = F_d y) /\ (forall y, states m' y = F_s y) /\ (forall ch, cstates m' ch = F_c ch) /\
      ver m' = ver m + 1.
    Proof.
      cbv zeta. destruct (hsu_spec m1 t1 (ti_sn _ _ Hti) (ti_cn _ _ Hti)) as [Od _ _ Os _ Oc _ _ _ _ _].
      split; [|split; [|split]].
      - intros y. rewrite Od. apply (mi_d _ _ _ Hi).
      - intros y. rewrite Os. unfold F_s. now rewrite (mi_s _ _ _ Hi).
      - intros ch. rewrite Oc. unfold F_c. now rewrite (mi_c _ _ _ Hi).
      - rewrite handle_state_updates_ver. apply (mi_ver _ _ _ Hi).
    Qed.

    Lemma written_get h d : In (h, d) (U ++ C) -> alist_get (U ++ C) h = Some d.
    Proof. apply alist_get_in. apply (bi_nd _ _ _ _ _ Hb). Qed.

    Lemma written_kept y d : alist_get (U ++ C) y = Some d -> memz y (map fst D) = false.
    Proof. exact (written_not_deleted (t_d t) b U C D Hb (incl_refl _) y d). Qed.

    Lemma ts_keys y : alist_get (U ++ C) y = None -> alist_get (t_s t1) y = None.
    Proof.
      intros E. rewrite (ti_s _ _ Hti). unfold corr_s. rewrite E.
      destruct (alist_get (t_s t) y) as [s|] eqn:Es; [|reflexivity]. exfalso.
      apply alist_get_some_in in Es. destruct (dx_st _ _ Ht y s Es) as [(d & Hd) _].
      apply alist_get_none_notin in E. apply E. rewrite map_app. apply in_or_app.
      destruct (descrs m y) eqn:Ed.
      - left. apply (in_map fst) with (x := (y, d)). apply (bi_Uc _ _ _ _ _ Hb); [exact Hd|congruence].
      - right. apply (in_map fst) with (x := (y, d)). now apply (bi_Cc _ _ _ _ _ Hb).
    Qed.

    Lemma ts_known h d s : In (h, d) U -> alist_get (t_s t1) h = Some s -> states m h <> None.
    Proof.
      intros HU E. rewrite (ti_s _ _ Hti) in E. unfold corr_s in E.
      rewrite (written_get h d) in E by (apply in_or_app; now left).
      destruct (bi_U _ _ _ _ _ Hb _ _ HU) as ((o & Eo & _) & _).
      assert (G : forall n, alist_get (t_s t) h = Some n -> states m h <> None).
      { intros n En. apply alist_get_some_in in En. destruct (dx_st _ _ Ht h n En) as [_ K]. apply K. congruence. }
      destruct (d_kind d =? K_CTX); [exact (G s E)|].
      unfold corr_state in E. destruct (alist_get (t_s t) h) as [n|] eqn:En; [exact (G n eq_refl)|].
      destruct (states m h); [discriminate|discriminate].
    Qed.

    Lemma t1_no_deletion : no_deletion t1.
    Proof.
      intros h Hin. apply (alist_get_in _ _ _ (ti_cn _ _ Hti)) in Hin. rewrite (ti_c _ _ Hti) in Hin.
      unfold corr_c in Hin. destruct (cstates m h) as [c|]; [|discriminate].
      destruct (alist_get (U ++ C) (c_dh c)) as [d|]; [|discriminate].
      destruct (d_kind d =? K_CTX); discriminate.
    Qed.

    Lemma items_get ch :
      alist_get (ctx_report_items t1) ch =
      match cstates m ch with
      | Some c => match alist_get (U ++ C) (c_dh c) with
                  | Some d => if Z.eqb (d_kind d) K_CTX then Some (corr_cstate (d_ver d) c) else None
                  | None => None
                  end
      | None => None
      end.
    Proof.
      rewrite (ctx_report_items_get t1 ch t1_no_deletion), (ti_c _ _ Hti). unfold corr_c.
      destruct (cstates m ch) as [c|]; [|reflexivity].
      destruct (alist_get (U ++ C) (c_dh c)) as [d|]; [|reflexivity].
      destruct (d_kind d =? K_CTX); reflexivity.
    Qed.

    Lemma items_nodup : NoDup (map fst (ctx_report_items t1)).
    Proof. rewrite (ctx_report_items_keys t1 t1_no_deletion). apply (ti_cn _ _ Hti). Qed.

    Lemma echo_ok seq inst :
      Forall (echo_of (handle_state_updates m1 t1) seq inst) (echo_reports (handle_state_updates m1 t1) t1 seq inst).
    Proof.
      destruct commit_tables as (_ & Ts & Tc & _). cbv zeta in *. apply echo_reports_ok.
      - intros h s Hin. rewrite Ts. unfold F_s. now rewrite (alist_get_in _ _ _ (ti_sn _ _ Hti) Hin).
      - intros h s Hin. apply (alist_get_in _ _ _ items_nodup) in Hin.
        rewrite (ctx_report_items_get t1 h t1_no_deletion) in Hin.
        rewrite Tc. unfold F_c. destruct (alist_get (t_c t1) h) as [[x|]|]; try discriminate. exact Hin.
    Qed.

    (* consumer tables after the parts for the descriptors in Q (a prefix of updated ++ created) *)
    Definition lin_s (Q : list (H * descr)) (y : H) : option state :=
      match alist_get Q y with
      | Some _ => match alist_get (t_s t1) y with Some s => Some s | None => states m y end
      | None => states m y
      end.
    Definition lin_c (Q : list (H * descr)) (ch : H) : option cstate :=
      match cstates m ch with
      | Some c0 => match alist_get Q (c_dh c0) with
                   | Some _ => match alist_get (ctx_report_items t1) ch with Some x => Some x | None => Some c0 end
                   | None => Some c0
                   end
      | None => None
      end.
    Definition linv (Q : list (H * descr)) (c' : cmdib) : Prop :=
      (forall y, cm_descrs c' y = ovl (alist_get Q) (descrs m) y) /\
      (forall y, cm_states c' y = lin_s Q y) /\ (forall ch, cm_cstates c' ch = lin_c Q ch).

    Lemma item_dh ch x c0 : alist_get (ctx_report_items t1) ch = Some x -> cstates m ch = Some c0 -> c_dh x = c_dh c0.
    Proof.
      intros Ex E0. rewrite items_get, E0 in Ex. destruct (alist_get (U ++ C) (c_dh c0)) as [d0|]; [|discriminate].
      destruct (d_kind d0 =? K_CTX); [|discriminate]. injection Ex as <-. reflexivity.
    Qed.

    Lemma lin_c_dh Q ch s : lin_c Q ch = Some s -> exists c0, cstates m ch = Some c0 /\ c_dh s = c_dh c0.
    Proof.
      unfold lin_c. destruct (cstates m ch) as [c0|] eqn:E0; [|discriminate]. intros E. exists c0. split; [reflexivity|].
      destruct (alist_get Q (c_dh c0)); [|now injection E as <-].
      destruct (alist_get (ctx_report_items t1) ch) as [x|] eqn:Ex; [|now injection E as <-].
      injection E as <-. eapply item_dh; eassumption.
    Qed.

    (* the tables after one more UPDATE or CREATE part, given its pointwise effect; [vs] / [vc] say what a listed
       state does to the held one (replace if known / write) *)
    Lemma linv_snoc Q c1 c' h d (vs : option state -> state -> option state) (vc : option cstate -> cstate -> option cstate) :
      linv Q c1 -> ~ In h (map fst Q) ->
      (forall s, alist_get (t_s t1) h = Some s -> vs (states m h) s = Some s) -> (forall o x, vc (Some o) x = Some x) ->
      (forall y, cm_descrs c' y = if Z.eqb h y then Some d else cm_descrs c1 y) ->
      (forall y, cm_states c' y = match alist_get (filter (fun x => fst x =? h) (t_s t1)) y with
                                  | Some s => vs (cm_states c1 y) s | None => cm_states c1 y end) ->
      (forall y, cm_cstates c' y = match alist_get (filter (fun x => c_dh (snd x) =? h) (ctx_report_items t1)) y with
                                   | Some s => vc (cm_cstates c1 y) s | None => cm_cstates c1 y end) ->
      linv (Q ++ [(h, d)]) c'.
    Proof.
      intros (Ld & Ls & Lc) HQ Hvs Hvc Pd Ps Pc.
      assert (HQh : alist_get Q h = None) by now apply alist_get_none_notin.
      split; [|split].
      - intros y. rewrite Pd, Ld. unfold ovl. rewrite (alist_get_snoc Q h d y HQ), (Z.eqb_sym h y). now destruct (y =? h).
      - intros y. rewrite Ps, filter_get by apply (ti_sn _ _ Hti). cbn [fst]. rewrite Ls. unfold lin_s.
        rewrite (alist_get_snoc Q h d y HQ).
        destruct (Z.eqb_spec y h) as [->|Hne]; [|now destruct (alist_get (t_s t1) y)]. rewrite HQh.
        destruct (alist_get (t_s t1) h) as [s|] eqn:Es; [now apply Hvs|reflexivity].
      - intros ch. rewrite Pc, filter_get by apply items_nodup. cbn [snd]. rewrite Lc. unfold lin_c.
        destruct (cstates m ch) as [c0|] eqn:E0; [|now rewrite items_get, E0].
        rewrite (alist_get_snoc Q h d (c_dh c0) HQ).
        destruct (alist_get (ctx_report_items t1) ch) as [x|] eqn:Ex.
        + rewrite (item_dh ch x c0 Ex E0). destruct (Z.eqb_spec (c_dh c0) h) as [E|Hne]; [|reflexivity].
          now rewrite E, HQh, Hvc.
        + destruct (Z.eqb_spec (c_dh c0) h) as [E|Hne]; [now rewrite E, HQh|reflexivity].
    Qed.

    Lemma upd_part_linv Q c1 h d : linv Q c1 -> In (h, d) U -> ~ In h (map fst Q) ->
      exists c', apply_part c1 (part_for t1 1 (h, d)) = (c', [(N_UPD, h)], false) /\ linv (Q ++ [(h, d)]) c'.
    Proof.
      intros HL HU HQ. pose proof HL as (Ld & _ & Lc).
      destruct (bi_U _ _ _ _ _ Hb _ _ HU) as ((o & Eo & Ep) & Hu & _).
      assert (HQh : alist_get Q h = None) by now apply alist_get_none_notin.
      assert (HLh : alist_get (U ++ C) h = Some d) by (apply written_get; apply in_or_app; now left).
      unfold part_for. cbn [fst].
      destruct (upd_part_spec c1 h d (filter (fun x => fst x =? h) (t_s t1))
                              (filter (fun x => c_dh (snd x) =? h) (ctx_report_items t1))) as (c' & Hp & Pd & Ps & Pc).
      - rewrite Ld. unfold ovl. rewrite HQh, Eo. discriminate.
      - apply NoDup_map_filter, (ti_sn _ _ Hti).
      - apply NoDup_map_filter, items_nodup.
      - intros Kc ch s Es Eh. unfold alist_has. rewrite filter_get by apply items_nodup. cbn [snd].
        rewrite Lc in Es. destruct (lin_c_dh Q ch s Es) as (c0 & E0 & Edh).
        rewrite items_get, E0. rewrite <- Edh, Eh, HLh. apply Z.eqb_eq in Kc. rewrite Kc.
        cbn [corr_cstate c_dh]. rewrite <- Edh, Eh, Z.eqb_refl. reflexivity.
      - exists c'. split; [exact Hp|]. apply (linv_snoc Q c1 c' h d known_val known_val HL HQ); try assumption; [|reflexivity].
        intros s Es. unfold known_val. destruct (states m h) eqn:Em; [reflexivity|]. exfalso. exact (ts_known h d s HU Es Em).
    Qed.

    Lemma crt_part_linv Q c1 h d : linv Q c1 -> In (h, d) C -> ~ In h (map fst Q) ->
      exists c', apply_part c1 (part_for t1 0 (h, d)) = (c', [(N_NEW, h)], false) /\ linv (Q ++ [(h, d)]) c'.
    Proof.
      intros HL HC HQ. pose proof HL as (Ld & _ & _).
      destruct (bi_C _ _ _ _ _ Hb _ _ HC) as [_ En].
      assert (HQh : alist_get Q h = None) by now apply alist_get_none_notin.
      unfold part_for. cbn [fst].
      destruct (crt_part_spec c1 h d (filter (fun x => fst x =? h) (t_s t1))
                              (filter (fun x => c_dh (snd x) =? h) (ctx_report_items t1))) as (c' & Hp & Pd & Ps & Pc).
      - rewrite Ld. unfold ovl. now rewrite HQh.
      - apply NoDup_map_filter, (ti_sn _ _ Hti).
      - apply NoDup_map_filter, items_nodup.
      - exists c'. split; [exact Hp|].
        now apply (linv_snoc Q c1 c' h d (fun _ s => Some s) (fun _ s => Some s) HL HQ).
    Qed.

    (* the parts for the descriptors X = X1 ++ X2 of one kind, those for X1 applied already (c1); Q0 holds the
       descriptors of the kinds before, rest the parts that follow *)
    Lemma phase modi ntag (X : list (H * descr)) :
      (forall Q c1 h d, linv Q c1 -> In (h, d) X -> ~ In h (map fst Q) ->
         exists c', apply_part c1 (part_for t1 modi (h, d)) = (c', [(ntag, h)], false) /\ linv (Q ++ [(h, d)]) c') ->
      forall X2 X1 Q0 c1 rest, X1 ++ X2 = X -> NoDup (map fst (Q0 ++ X)) -> linv (Q0 ++ X1) c1 -> cdom_ok c1 ->
      exists cX, linv (Q0 ++ X) cX /\ cdom_ok cX /\
        apply_parts c1 (map (part_for t1 modi) X2 ++ rest) =
        (let '(c2, ns2) := apply_parts cX rest in (c2, map (fun e => (ntag, fst e)) X2 ++ ns2)).
    Proof.
      intros Hstep. induction X2 as [|[h d] X2 IH]; intros X1 Q0 c1 rest HX Hn Hl Hc.
      - rewrite app_nil_r in HX. subst X1. exists c1. split; [exact Hl|]. split; [exact Hc|]. cbn [map app].
        destruct (apply_parts c1 rest); reflexivity.
      - assert (HQ : ~ In h (map fst (Q0 ++ X1))).
        { rewrite <- HX, app_assoc in Hn. exact (nodup_mid (Q0 ++ X1) X2 (h, d) Hn). }
        destruct (Hstep (Q0 ++ X1) c1 h d Hl) as (c' & Hp & Hl'); [rewrite <- HX; apply in_or_app; right; now left|exact HQ|].
        rewrite <- app_assoc in Hl'.
        destruct (IH (X1 ++ [(h, d)]) Q0 c' rest) as (cX & HlX & HcX & HeX);
          [rewrite <- app_assoc; exact HX|exact Hn|exact Hl'|exact (apply_part_cdom_ok _ _ _ _ Hp Hc)|].
        exists cX. split; [exact HlX|]. split; [exact HcX|]. cbn [map app apply_parts fst]. rewrite Hp, HeX.
        destruct (apply_parts cX rest); reflexivity.
    Qed.

    (* the consumer between two DELETE parts: cL (its tables after the CREATE parts) without the handles R, which
       are all in D *)
    Definition dinv (cL : cmdib) (R : list H) (c' : cmdib) : Prop :=
      (forall y, cm_descrs c' y = if memz y R then None else cm_descrs cL y) /\
      (forall y, cm_states c' y = if memz y R then None else cm_states cL y) /\
      (forall ch, cm_cstates c' ch = match cm_cstates cL ch with
                                     | Some s => if memz (c_dh s) R then None else Some s
                                     | None => None end) /\
      cdom_ok c' /\ (forall y, In y R -> In y (map fst D)).

    Lemma del_part_dinv cL R c' x dx : linv (U ++ C) cL -> dinv cL R c' -> In x (map fst D) ->
      exists c'', apply_part c' (part_for t1 2 (x, dx)) = (c'', map (fun y => (N_DEL, y)) (csubtree c' x), false) /\
                  dinv cL (R ++ csubtree c' x) c'' /\ In x (R ++ csubtree c' x).
    Proof.
      intros (Ld & _ & _) (Id & Is & Ic & Icd & IR) Hx.
      assert (Hp : apply_part c' (part_for t1 2 (x, dx)) =
                   (crm_sub c' x, map (fun y => (N_DEL, y)) (csubtree c' x), false)).
      { unfold part_for. apply del_part_single; discriminate. }
      exists (crm_sub c' x). split; [exact Hp|].
      pose proof (crm_list_descrs (csubtree c' x) c') as Fd. pose proof (crm_list_states (csubtree c' x) c') as Fs.
      pose proof (crm_list_cstates (csubtree c' x) c') as Fc. fold (crm_sub c' x) in Fd, Fs, Fc.
      apply (bi_D _ _ _ _ _ Hb) in Hx. destruct Hx as (Ex & r & Hr & Gx).
      assert (HTb : forall y, cm_descrs c' y = if memz y R then None else ovl (alist_get (U ++ C)) (descrs m) y).
      { intros y. now rewrite Id, Ld. }
      assert (Hsubin : forall y, In y (csubtree c' x) -> In y (map fst D)).
      { intros y Hy. apply (csubtree_In_sem c' x y Icd) in Hy. destruct Hy as [Ey Gy].
        pose proof (reach_transfer _ _ r (ovl_par_back _ _ _ _ _ r Hb (incl_refl _) Hr _ R HTb) y x Gy Gx) as Gr.
        apply (bi_D _ _ _ _ _ Hb). split; [|exists r; now split].
        exact (ovl_live _ _ _ _ _ r Hb Hr _ R HTb y Ey Gr). }
      split.
      - split; [|split; [|split; [|split]]].
        + intros y. rewrite Fd, Id, memz_app. destruct (memz y R), (memz y (csubtree c' x)); reflexivity.
        + intros y. rewrite Fs, Is, memz_app. destruct (memz y R), (memz y (csubtree c' x)); reflexivity.
        + intros ch. rewrite Fc. pose proof (Ic ch) as E. destruct (cm_cstates cL ch) as [s|]; [|now rewrite E].
          rewrite memz_app. destruct (memz (c_dh s) R); [now rewrite E|]. rewrite E.
          assert (Hin : memz ch (cm_cdom c') = true).
          { apply memz_In. apply (proj2 Icd). rewrite E. discriminate. }
          rewrite Hin. reflexivity.
        + exact (apply_part_cdom_ok _ _ _ _ Hp Icd).
        + intros y Hy. apply in_app_or in Hy. destruct Hy as [Hy|Hy]; [now apply IR|now apply Hsubin].
      - apply in_or_app. destruct (cm_descrs c' x) eqn:Ec.
        + right. apply (csubtree_In_sem c' x x Icd). split; [congruence|constructor].
        + left. rewrite Id in Ec. destruct (memz x R) eqn:Em; [now apply memz_In|].
          exfalso. rewrite Ld in Ec. exact (ovl_keeps _ _ x Ex Ec).
    Qed.

    Lemma del_phase cL : linv (U ++ C) cL -> forall D2 D1 R c', D1 ++ D2 = D -> dinv cL R c' ->
      (forall x, In x (map fst D1) -> In x R) ->
      exists cD added, dinv cL (R ++ added) cD /\ (forall x, In x (map fst D) -> In x (R ++ added)) /\
        apply_parts c' (map (part_for t1 2) D2) = (cD, map (fun y => (N_DEL, y)) added).
    Proof.
      intros HL. induction D2 as [|[x dx] D2 IH]; intros D1 R c' HD Hinv Hcov.
      - rewrite app_nil_r in HD. subst D1. exists c', []. rewrite app_nil_r. split; [exact Hinv|]. split; [exact Hcov|reflexivity].
      - assert (Hx : In x (map fst D)) by (rewrite <- HD, map_app; apply in_or_app; right; now left).
        destruct (del_part_dinv cL R c' x dx HL Hinv Hx) as (c'' & Hp & Hinv' & Hxin).
        destruct (IH (D1 ++ [(x, dx)]) (R ++ csubtree c' x) c'') as (cD & added & A & B & E);
          [rewrite <- app_assoc; exact HD|exact Hinv'| |].
        { intros y Hy. rewrite map_app in Hy. apply in_app_or in Hy. destruct Hy as [Hy|[<-|[]]]; [|exact Hxin].
          apply in_or_app. left. now apply Hcov. }
        exists cD, (csubtree c' x ++ added). rewrite app_assoc. split; [exact A|]. split; [exact B|].
        cbn [map apply_parts]. rewrite Hp, E, map_app. reflexivity.
    Qed.

    Section Mirror.
      Variable c : cmdib.
      Hypothesis Hmir : mirrors c m.
      Hypothesis Hcd : cdom_ok c.

      Definition the_parts : list dpart :=
        map (part_for t1 1) U ++ map (part_for t1 0) C ++ map (part_for t1 2) D.

      Lemma consumer_tables :
        let c' := fst (receive c (RDescr (mkVg (ver m + 1) (cm_seq c) (cm_inst c)) the_parts)) in
        (forall y, cm_descrs c' y = F_d y) /\ (forall y, cm_states c' y = F_s y) /\
        (forall ch, cm_cstates c' ch = F_c ch) /\
        cm_ver c' = ver m + 1 /\ cm_mode c' = CInitialized /\ cm_seq c' = cm_seq c /\ cm_inst c' = cm_inst c /\
        cdom_ok c' /\
        exists R, (forall y, In y R <-> In y (map fst D)) /\
          snd (receive c (RDescr (mkVg (ver m + 1) (cm_seq c) (cm_inst c)) the_parts)) =
          map (fun e => (N_UPD, fst e)) U ++ map (fun e => (N_NEW, fst e)) C ++ map (fun y => (N_DEL, y)) R.
      Proof.
        destruct Hmir as (Md & Ms & Mc & Mv & Mm). cbv zeta.
        rewrite receive_accept, process_accept by (try assumption; try reflexivity; cbn; lia). cbn [report_vg].
        set (c2 := set_vg _ _).
        (* three phases: the UPDATE parts take linv from [] to U, the CREATE parts on to U ++ C (phase), the DELETE
           parts remove exactly the handles of D (del_phase) *)
        assert (L0 : linv [] c2).
        { split; [|split].
          - intros y. subst c2. cbn. now rewrite Md.
          - intros y. subst c2. cbn. now rewrite Ms.
          - intros ch. subst c2. unfold lin_c. cbn. rewrite Mc. destruct (cstates m ch); reflexivity. }
        assert (Hc2 : cdom_ok c2) by exact Hcd.
        pose proof (apply_parts_hdr the_parts c2) as Hh.
        destruct (phase 1 N_UPD U upd_part_linv U [] [] c2 (map (part_for t1 0) C ++ map (part_for t1 2) D))
          as (cU & LU & HcU & EU); [reflexivity| |exact L0|exact Hc2|].
        { cbn [app]. pose proof (bi_nd _ _ _ _ _ Hb) as N. rewrite map_app in N. now apply NoDup_app_inv in N as (N & _). }
        destruct (phase 0 N_NEW C crt_part_linv C [] U cU (map (part_for t1 2) D))
          as (cL & LL & HcL & EC); [reflexivity|exact (bi_nd _ _ _ _ _ Hb)|rewrite app_nil_r; exact LU|exact HcU|].
        destruct (del_phase cL LL D [] [] cL eq_refl) as (cD & R' & ID & Hcov & ED).
        { split; [|split; [|split; [|split]]]; try (intros; reflexivity); [|exact HcL|intros y []].
          intros ch. destruct (cm_cstates cL ch); reflexivity. }
        { intros x []. }
        cbn [app] in ID, Hcov.
        assert (Efin : apply_parts c2 the_parts =
                       (cD, map (fun e => (N_UPD, fst e)) U ++ map (fun e => (N_NEW, fst e)) C ++ map (fun y => (N_DEL, y)) R')).
        { unfold the_parts. cbn [app] in EU. rewrite EU, EC, ED. reflexivity. }
        rewrite Efin in *. cbn [fst snd] in *.
        destruct ID as (Id & Is & Ic & Icd & IR). destruct LL as (Ld & Ls & Lc).
        assert (HR : forall y, memz y R' = memz y (map fst D)).
        { intros y. apply memz_ext. intros x. split; [apply IR|apply Hcov]. }
        split; [|split; [|split]].
        - intros y. rewrite Id, HR, Ld. reflexivity.
        - intros y. rewrite Is, HR, Ls. unfold F_s, lin_s.
          destruct (alist_get (U ++ C) y) as [d0|] eqn:EL.
          + rewrite (written_kept y d0 EL). destruct (alist_get (t_s t1) y); reflexivity.
          + rewrite (ts_keys y EL). reflexivity.
        - intros ch. rewrite Ic, Lc. unfold F_c, lin_c. rewrite (ti_c _ _ Hti). unfold corr_c.
          destruct (cstates m ch) as [c0|] eqn:E0; [|reflexivity].
          destruct (alist_get (U ++ C) (c_dh c0)) as [d0|] eqn:EL.
          + rewrite items_get, E0, EL. destruct (d_kind d0 =? K_CTX).
            * cbn [corr_cstate c_dh]. rewrite HR, (written_kept _ d0 EL). reflexivity.
            * rewrite HR, (written_kept _ d0 EL). reflexivity.
          + rewrite HR. reflexivity.
        - destruct Hh as (V & S & I & M & _). subst c2. cbn in V, S, I, M.
          split; [exact V|]. split; [now rewrite M|]. split; [exact S|]. split; [exact I|]. split; [exact Icd|].
          exists R'. split; [|reflexivity]. intros y. split; [apply IR|apply Hcov].
      Qed.
    End Mirror.

    Lemma Fd_ok y : descrs m y <> None -> memz y (map fst D) = false -> F_d y <> None.
    Proof. intros Ey En. unfold F_d. rewrite En. now apply ovl_keeps. Qed.

    Lemma Fd_written y d : alist_get (U ++ C) y = Some d -> F_d y <> None.
    Proof. intros EL. unfold F_d, ovl. rewrite (written_kept y d EL), EL. discriminate. Qed.

    Lemma commit_pm_ok : pm_ok (handle_state_updates m1 t1).
    Proof.
      destruct commit_tables as (Td & Ts & Tc & _). cbv zeta in *.
      destruct (hsu_spec m1 t1 (ti_sn _ _ Hti) (ti_cn _ _ Hti)) as [_ _ Odd _ _ _ _ Ocd Ocn _ _].
      constructor.
      - intros y Hy. rewrite Odd. apply (mi_ddom _ _ _ Hi). rewrite Td in Hy. now rewrite (mi_d _ _ _ Hi).
      - intros ch Hy. apply Ocd. rewrite (mi_cdom _ _ _ Hi). rewrite Tc in Hy. unfold F_c in Hy.
        destruct (alist_get (t_c t1) ch) as [x|] eqn:E; [right; eapply alist_get_key; exact E|].
        left. apply (pm_cd _ Hm). destruct (cstates m ch); [discriminate|contradiction].
      - apply Ocn. rewrite (mi_cdom _ _ _ Hi). apply (pm_nd _ Hm).
      - intros y Hy. rewrite Td. rewrite Ts in Hy. unfold F_s in Hy.
        destruct (alist_get (t_s t1) y) as [s|] eqn:E.
        + destruct (alist_get (U ++ C) y) as [d0|] eqn:EL; [|rewrite (ts_keys y EL) in E; discriminate].
          exact (Fd_written y d0 EL).
        + destruct (memz y (map fst D)) eqn:En; [contradiction|]. apply Fd_ok; [|exact En]. now apply (pm_st _ Hm).
      - intros ch c0 Hc. rewrite Td. rewrite Tc in Hc. unfold F_c in Hc. rewrite (ti_c _ _ Hti) in Hc. unfold corr_c in Hc.
        destruct (cstates m ch) as [cm|] eqn:E0; [|discriminate].
        assert (Old : (if memz (c_dh cm) (map fst D) then None else Some cm) = Some c0 -> F_d (c_dh c0) <> None).
        { destruct (memz (c_dh cm) (map fst D)) eqn:En; [discriminate|]. intros [= <-].
          apply Fd_ok; [|exact En]. exact (pm_cs _ Hm ch cm E0). }
        destruct (alist_get (U ++ C) (c_dh cm)) as [d0|] eqn:EL; [|exact (Old Hc)].
        destruct (d_kind d0 =? K_CTX); [|exact (Old Hc)]. injection Hc as <-. cbn [corr_cstate c_dh].
        exact (Fd_written _ d0 EL).
    Qed.

    (* Proofs_Descr.exec1_ok keeps tree_ok too, but under mdib_wf; sys_ok carries pm_ok, which lacks its wf_ctx, so
       it is read off F_d here *)
    Lemma commit_tree_ok : tree_ok m -> dpar_ok m t -> tree_ok (handle_state_updates m1 t1).
    Proof.
      destruct commit_tables as (Td & _). cbv zeta in Td. intros Htr Hdp h d p Eh Ep. rewrite Td in *.
      assert (Up : forall o, descrs m h = Some o -> d_parent o = Some p -> ~ In h (map fst D) -> F_d p <> None).
      { intros o Eo Epo Hn. apply Fd_ok; [exact (Htr h o p Eo Epo)|]. apply memz_false.
        intros Hp. apply Hn. apply (Dh_closed (t_d t) b U C D Hb h p); [unfold par; now rewrite Eo|exact Hp]. }
      unfold F_d in Eh. destruct (memz h (map fst D)) eqn:Em; [discriminate|]. apply memz_false in Em. unfold ovl in Eh.
      destruct (alist_get (U ++ C) h) as [d0|] eqn:EL.
      - injection Eh as ->. destruct (written_cases _ _ _ _ _ Hb h d EL) as [(o & Eo & Epar & _)|[En Hpre]].
        + apply (Up o Eo); [congruence|exact Em].
        + destruct (Hdp h d p Hpre En Ep) as [Ex|(d' & Hd')].
          * apply Fd_ok; [exact Ex|]. exact (undel_notin_D _ _ _ _ _ p Hb (incl_refl _) (proj2 (nc_item h d Hpre) p Ep)).
          * assert (HL : In (p, d') (U ++ C)).
            { apply in_or_app. destruct (descrs m p) eqn:Ex.
              - left. apply (bi_Uc _ _ _ _ _ Hb); [exact Hd'|congruence].
              - right. now apply (bi_Cc _ _ _ _ _ Hb). }
            exact (Fd_written p d' (written_get p d' HL)).
      - apply (Up d Eh Ep Em).
    Qed.
  End Final.

  Theorem mirror_step_descr c :
    t_d t <> [] -> mirrors c m -> cdom_ok c ->
    let m' := commit_descr m t in
    let r := descr_report m t (cm_seq c) (cm_inst c) in
    let c' := fst (receive c r) in
    mirrors c' m' /\ cdom_ok c' /\ cm_seq c' = cm_seq c /\ cm_inst c' = cm_inst c /\ pm_ok m' /\
    exists R, (forall y, In y R <-> In y (map fst (tx_deleted m t))) /\
      snd (receive c r) = map (fun e => (N_UPD, fst e)) (tx_updated m t) ++
                          map (fun e => (N_NEW, fst e)) (tx_created m t) ++ map (fun y => (N_DEL, y)) R.
  Proof.
    intros Hne Hmir Hcd. cbv zeta. rewrite (commit_descr_run m t Hne). unfold descr_report, tx_updated, tx_created, tx_deleted.
    pose proof tx_run_inv as Hrun. destruct (tx_run m t) as [[[m1 t1] b] [[U C] D]]. cbn [fst snd].
    destruct (commit_tables m1 t1 b U C D Hrun) as (Td & Ts & Tc & Tv).
    destruct (consumer_tables m1 t1 b U C D Hrun c Hmir Hcd) as (Cd & Cs & Cc & Cv & Cm & Cq & Ci & Ck & Cn).
    cbv zeta in *. unfold the_parts in *.
    split; [|split; [exact Ck|split; [exact Cq|split; [exact Ci|split; [exact (commit_pm_ok m1 t1 b U C D Hrun)|exact Cn]]]]].
    split; [|split; [|split; [|split]]].
    - intros y. now rewrite Cd, Td.
    - intros y. now rewrite Cs, Ts.
    - intros ch. now rewrite Cc, Tc.
    - now rewrite Cv, Tv.
    - exact Cm.
  Qed.

  Theorem commit_descr_tree_ok : t_d t <> [] -> tree_ok m -> dpar_ok m t -> tree_ok (commit_descr m t).
  Proof.
    intros Hne Htr Hdp. rewrite (commit_descr_run m t Hne).
    pose proof tx_run_inv as Hrun. destruct (tx_run m t) as [[[m1 t1] b] [[U C] D]]. cbn [fst snd].
    exact (commit_tree_ok m1 t1 b U C D Hrun Htr Hdp).
  Qed.
End DescrCommit.

(* TransactionResult.descr_deleted holds the descriptors below a removed handle *)
Theorem tx_deleted_spec m t : pm_ok m -> dtx_ok m t -> forall y,
  In y (map fst (tx_deleted m t)) <->
  descrs m y <> None /\ exists r, In (r, None) (t_d t) /\ reachR (descrs m) y r.
Proof.
  intros Hm Ht y. unfold tx_deleted. pose proof (tx_run_inv m t Hm Ht) as Hrun.
  destruct (tx_run m t) as [[[m1 t1] b] [[U C] D]]. exact (bi_D _ _ _ _ _ _ _ (proj2 (proj2 Hrun)) y).
Qed.

Definition descr_action (a : action) : Prop :=
  match a with ADAdd _ _ _ _ _ | ADUpd _ _ | ADDel _ | ADState _ _ => True | _ => False end.
Definition descr_only (acts : list action) : Prop := forall a, In a acts -> descr_action a.

Lemma alist_has_false_notin {A} (l : list (H * A)) h : alist_has l h = false -> ~ In h (map fst l).
Proof. intros E Hi. apply alist_has_in in Hi. congruence. Qed.

(* the shape is what descriptor-transaction bodies build *)
Lemma body_dshape m acts t : descr_only acts -> body 6 m empty_tx acts = Ok t -> dshape m t.
Proof.
  intros Ho B.
  destruct (Proofs_Descr.body_dtx_ok m acts acts empty_tx t Ho (incl_refl _) (Proofs_Descr.empty_dtx_ok m acts) B)
    as [Dc Dn Ds Di Dsi].
  constructor; try assumption.
  - intros h s Hi. destruct (Dsi h s Hi) as (d & Hd & _ & [[En _]|(o & Eo & _)]); (split; [now exists d|]); congruence.
  - intros r Hr. pose proof (proj1 (Di r None Hr)) as Ok. unfold Proofs_Descr.ditem_ok in Ok.
    destruct (descrs m r); [discriminate|contradiction].
  - intros h d o Hi Eo. pose proof (proj1 (Di h (Some d) Hi)) as Ok. unfold Proofs_Descr.ditem_ok in Ok. rewrite Eo in Ok.
    now destruct Ok as (P & K & _).
Qed.

(* everything the provider emits for a committed descriptor transaction *)
Definition descr_reports (m : mdib) (t : tx) (seq inst : Z) : list report :=
  descr_report m t seq inst :: echo_reports (commit_descr m t) (snd (fst (fst (tx_run m t)))) seq inst.

Theorem mirror_step_descr_all m t c :
  pm_ok m -> dtx_ok m t -> t_d t <> [] -> mirrors c m -> cdom_ok c ->
  let m' := commit_descr m t in
  let c' := receive_all c (descr_reports m t (cm_seq c) (cm_inst c)) in
  mirrors c' m' /\ cdom_ok c' /\ cm_seq c' = cm_seq c /\ cm_inst c' = cm_inst c /\ pm_ok m'.
Proof.
  intros Hm Ht Hne Hmir Hcd. cbv zeta. unfold descr_reports. cbn [receive_all].
  destruct (mirror_step_descr m t Hm Ht c Hne Hmir Hcd) as (M1 & K1 & S1 & I1 & P1 & _). cbv zeta in *.
  rewrite (echo_all (commit_descr m t)); [exact (conj M1 (conj K1 (conj S1 (conj I1 P1))))|exact M1|].
  rewrite S1, I1, (commit_descr_run m t Hne). pose proof (tx_run_inv m t Hm Ht) as Hrun.
  destruct (tx_run m t) as [[[m1 t1] b] [[U C] D]]. exact (echo_ok m t m1 t1 b U C D Hrun _ _).
Qed.

(* provider and consumer side by side for all three kinds of transaction (state, context, descriptor): every
   committed, non-empty transaction sends its report(s), which the consumer processes before the next transaction.
   On state transactions it is Consumer_Proofs.pc_step (pc_step3_state). *)
Definition pc_step3 (seq inst : Z) (mc : mdib * cmdib) (x : txn) : mdib * cmdib :=
  let '(m, c) := mc in
  let '(k, ab, acts) := x in
  match ab, body k m empty_tx acts with
  | None, Ok t =>
      if Z.eqb k 6 then
        if subtree_conflict m t || orphan_create m t then (m, c)   (* ApiUsageError: nothing changes, nothing is sent *)
        else
        match t_d t with
        | [] => (m, c)
        | _ => (commit_descr m t, receive_all c (descr_reports m t seq inst))
        end
      else if Z.eqb k 5 then
        match t_c t with
        | [] => (m, c)
        | _ => let m' := commit_states m t in
               (m', fst (receive c (RCtx (mkVg (ver m') seq inst) (ctx_report_items t))))
        end
      else
        match t_s t with
        | [] => (m, c)
        | _ => let m' := commit_states m t in (m', fst (receive c (state_report m' seq inst t)))
        end
  | _, _ => (m, c)
  end.

(* process_transaction refuses a transaction that would create an orphan: what passes creates none *)
Lemma orphan_create_dpar_ok m t : orphan_create m t = false -> dpar_ok m t.
Proof.
  intros E h d p Hin En Ep. destruct (Proofs_Descr.no_orphan m t E h d p Hin En Ep) as [X|(d2 & Hd & _)]; [now left|right; now exists d2].
Qed.

(* admissible transactions, relative to the MDIB they are applied to: state transactions of any kind; context
   transactions that report everything they do (no deletion through the entity interface - the known finding);
   descriptor transactions of ANY add / update / remove / get_state calls - what process_transaction refuses
   (subtree_conflict, orphan_create) changes nothing and sends nothing *)
Definition txn_ok (m : mdib) (x : txn) : Prop :=
  let '(k, ab, acts) := x in
  (0 <= k < 5 /\ state_only acts) \/
  (k = 5 /\ ctx_only acts /\ fresh_ok m acts /\ forall t, body 5 m empty_tx acts = Ok t -> no_deletion t) \/
  (k = 6 /\ descr_only acts).

Fixpoint hist_ok (m : mdib) (hist : list txn) : Prop :=
  match hist with
  | [] => True
  | x :: r => txn_ok m x /\ hist_ok (exec1 m x) r
  end.

(* tree_ok is not needed by the mirror step itself: it discharges dpar_res for the next descriptor transaction
   (descr_body_wellformed) and is kept by every commit (commit_descr_tree_ok) *)
Definition sys_ok (seq inst : Z) (m : mdib) (c : cmdib) : Prop :=
  mirrors c m /\ cdom_ok c /\ pm_ok m /\ tree_ok m /\ cm_seq c = seq /\ cm_inst c = inst.

Theorem descr_body_wellformed m acts t :
  descr_only acts -> body 6 m empty_tx acts = Ok t -> subtree_conflict m t || orphan_create m t = false ->
  tree_ok m -> dtx_ok m t /\ dpar_ok m t.
Proof.
  intros Ho B Hc Htr. apply orb_false_elim in Hc. destruct Hc as [Hc Hor].
  split; [|now apply orphan_create_dpar_ok]. apply dtx_ok_intro; [|exact Hc|now apply tree_dpar_res].
  exact (body_dshape m acts t Ho B).
Qed.

(* one committed transaction of each kind keeps the side-by-side system well-formed *)
Lemma sys_ok_state seq inst k m t c : stx_ok k m t -> t_s t <> [] -> sys_ok seq inst m c ->
  sys_ok seq inst (commit_states m t) (fst (receive c (state_report (commit_states m t) seq inst t))).
Proof.
  intros Hok Hne (Hmir & Hcd & Hpm & Htr & <- & <-).
  split; [apply (mirror_step_state_tx k m t c Hok Hne Hmir)|]. split; [now apply receive_cdom_ok|].
  split; [eapply commit_states_pm_ok_state; eassumption|]. split; [|apply receive_seq_inst].
  destruct (commit_states_pointwise k m t Hok) as (_ & Dd & _). unfold tree_ok. rewrite Dd. exact Htr.
Qed.

Lemma sys_ok_ctx seq inst m t c : ctx_ok m t -> no_deletion t -> t_c t <> [] -> sys_ok seq inst m c ->
  sys_ok seq inst (commit_states m t)
         (fst (receive c (RCtx (mkVg (ver (commit_states m t)) seq inst) (ctx_report_items t)))).
Proof.
  intros Hok Hnd Hne (Hmir & Hcd & Hpm & Htr & <- & <-).
  split; [apply (mirror_step_ctx_tx m t c Hok Hnd Hne Hmir)|]. split; [now apply receive_cdom_ok|].
  split; [now apply commit_states_pm_ok_ctx|]. split; [|apply receive_seq_inst].
  destruct (commit_ctx_pointwise m t Hok) as (Dd & _). unfold tree_ok. rewrite Dd. exact Htr.
Qed.

Lemma sys_ok_descr seq inst m t c : dtx_ok m t -> dpar_ok m t -> t_d t <> [] -> sys_ok seq inst m c ->
  sys_ok seq inst (commit_descr m t) (receive_all c (descr_reports m t seq inst)).
Proof.
  intros Hok Hdp Hne (Hmir & Hcd & Hpm & Htr & <- & <-).
  destruct (mirror_step_descr_all m t c Hpm Hok Hne Hmir Hcd) as (A1 & A2 & A3 & A4 & A5). cbv zeta in *.
  split; [exact A1|]. split; [exact A2|]. split; [exact A5|].
  split; [exact (commit_descr_tree_ok m t Hpm Hok Hne Htr Hdp)|now split].
Qed.

Lemma pc_step3_state seq inst mc k ab acts :
  0 <= k < 5 -> pc_step3 seq inst mc (k, ab, acts) = pc_step seq inst mc (k, ab, acts).
Proof.
  intros Hk. destruct mc as [m c]. unfold pc_step3, pc_step.
  replace (k =? 6) with false by lia. replace (k =? 5) with false by lia. reflexivity.
Qed.

Lemma pc_step3_ok seq inst m c x : txn_ok m x -> sys_ok seq inst m c ->
  fst (pc_step3 seq inst (m, c) x) = exec1 m x /\
  sys_ok seq inst (fst (pc_step3 seq inst (m, c) x)) (snd (pc_step3 seq inst (m, c) x)).
Proof.
  intros Hx Hs. destruct x as [[k ab] acts]. destruct Hx as [[Hk Ho]|[(-> & Ho & Hf & Hnd)|(-> & Ho)]].
  - rewrite pc_step3_state by exact Hk.
    destruct (pc_step_cases seq inst m c (k, ab, acts) (conj Hk Ho)) as [[-> ->]|(k' & t & Hok & Hne & -> & ->)];
      (split; [reflexivity|]); [exact Hs|now apply (sys_ok_state seq inst k')].
  - unfold pc_step3, exec1. destruct ab as [n|]; [split; [symmetry; apply abort_never_commits|exact Hs]|].
    unfold transaction. destruct (body 5 m empty_tx acts) as [t|e] eqn:B; [|split; [now destruct e|exact Hs]].
    assert (Hok : ctx_ok m t) by (eapply body_ctx_ok; try eassumption; apply empty_ctx_ok).
    change (5 =? 6) with false. change (5 =? 5) with true. cbv iota. destruct (t_c t) as [|i0 l0] eqn:Et.
    + split; [symmetry; apply commit_states_empty; [apply (cx_s _ _ Hok)|exact Et]|exact Hs].
    + split; [reflexivity|]. apply sys_ok_ctx; [exact Hok|exact (Hnd t eq_refl)|rewrite Et; discriminate|exact Hs].
  - unfold pc_step3, exec1. destruct ab as [n|]; [split; [symmetry; apply abort_never_commits|exact Hs]|].
    unfold transaction. destruct (body 6 m empty_tx acts) as [t|e] eqn:B; [|split; [now destruct e|exact Hs]].
    change (6 =? 6) with true. cbv iota.
    destruct (subtree_conflict m t || orphan_create m t) eqn:Ec; [split; [reflexivity|exact Hs]|].
    destruct (t_d t) as [|i0 l0] eqn:Et; [split; [symmetry; now apply commit_descr_empty|exact Hs]|].
    split; [reflexivity|]. destruct (descr_body_wellformed m acts t Ho B Ec) as [Hok Hdp]; [apply Hs|].
    apply sys_ok_descr; [exact Hok|exact Hdp|rewrite Et; discriminate|exact Hs].
Qed.

(* boolean twins of the well-formedness predicates, to evaluate them on concrete transactions *)
Fixpoint nodupb (l : list H) : bool := match l with [] => true | a :: r => negb (memz a r) && nodupb r end.
Lemma nodupb_sound l : nodupb l = true -> NoDup l.
Proof.
  induction l as [|a r IH]; cbn [nodupb]; [constructor|]. intros E. apply andb_prop in E. destruct E as [E1 E2].
  constructor; [|now apply IH]. apply memz_false. now apply negb_true_iff in E1.
Qed.

Definition opt_h_eqb (a b : option H) : bool :=
  match a, b with Some x, Some y => Z.eqb x y | None, None => true | _, _ => false end.

Definition dtx_okb (m : mdib) (t : tx) : bool :=
  (match t_c t with [] => true | _ => false end) && nodupb (map fst (t_d t)) && nodupb (map fst (t_s t)) &&
  forallb (fun e => (match alist_get (t_d t) (fst e) with Some (Some _) => true | _ => false end) &&
                    (match descrs m (fst e), states m (fst e) with Some _, None => false | _, _ => true end)) (t_s t) &&
  forallb (fun e => match snd e, descrs m (fst e) with
                    | None, Some o => match d_parent o with
                                      | Some p => negb (memz p (map fst (filter (is_create m) (t_d t))))
                                      | None => true end
                    | None, None => false
                    | Some d, Some o => opt_h_eqb (d_parent d) (d_parent o) && Z.eqb (d_kind d) (d_kind o)
                    | Some d, None => true
                    end) (t_d t) &&
  negb (subtree_conflict m t).

Lemma dtx_okb_sound m t : dtx_okb m t = true -> dtx_ok m t.
Proof.
  intros E. unfold dtx_okb in E. rewrite !andb_true_iff in E. destruct E as (((((E1 & E2) & E3) & E4) & E5) & E6).
  rewrite forallb_forall in E4, E5.
  constructor.
  - destruct (t_c t); [reflexivity|discriminate].
  - now apply nodupb_sound.
  - now apply nodupb_sound.
  - intros h s Hi. specialize (E4 _ Hi). cbn [fst] in E4. apply andb_prop in E4. destruct E4 as [X Y]. split.
    + destruct (alist_get (t_d t) h) as [[d|]|] eqn:G; try discriminate. exists d. now apply alist_get_some_in.
    + intros Hn. destruct (descrs m h); [|contradiction]. destruct (states m h); [discriminate|discriminate].
  - intros r Hr. specialize (E5 _ Hr). cbn [fst snd] in E5. destruct (descrs m r) as [o|]; [discriminate|discriminate].
  - intros h d o Hi Eo. specialize (E5 _ Hi). cbn [fst snd] in E5. rewrite Eo in E5.
    apply andb_prop in E5. destruct E5 as [X Y]. split; [|now apply Z.eqb_eq].
    unfold opt_h_eqb in X. destruct (d_parent d), (d_parent o); try discriminate; [apply Z.eqb_eq in X; now subst|reflexivity].
  - now apply negb_true_iff in E6.
  - intros r o p Hr Eo Ep. specialize (E5 _ Hr). cbn [fst snd] in E5. rewrite Eo, Ep in E5. now apply negb_true_iff in E5.
Qed.

(* a provider MDIB given by association lists is well-formed when the lists are *)
Lemma pm_ok_alists ds ss cs v a b c0 :
  nodupb (map fst cs) = true ->
  forallb (fun e => alist_has ds (fst e)) ss = true ->
  forallb (fun e => alist_has ds (c_dh (snd e))) cs = true ->
  pm_ok (mkMdib (fun h => alist_get ds h) (fun h => alist_get ss h) (fun h => alist_get cs h) v a b c0
                (map fst ds) (map fst cs)).
Proof.
  intros N S C. rewrite forallb_forall in S, C. constructor; cbn [descrs states cstates ddom cdom].
  - intros h Hh. destruct (alist_get ds h) eqn:E; [|contradiction]. eapply alist_get_key. exact E.
  - intros h Hh. destruct (alist_get cs h) eqn:E; [|contradiction]. eapply alist_get_key. exact E.
  - now apply nodupb_sound.
  - intros h Hh. destruct (alist_get ss h) as [s|] eqn:E; [|contradiction]. apply alist_get_some_in in E.
    specialize (S _ E). unfold alist_has in S. cbn [fst] in S. destruct (alist_get ds h); [discriminate|discriminate].
  - intros ch c1 E. apply alist_get_some_in in E. specialize (C _ E). unfold alist_has in C. cbn [fst snd] in C.
    destruct (alist_get ds (c_dh c1)); [discriminate|discriminate].
Qed.

Definition dpar_okb (m : mdib) (t : tx) : bool :=
  forallb (fun e => match snd e, descrs m (fst e) with
                    | Some d, None => match d_parent d with
                                      | Some p => (match descrs m p with Some _ => true | None => false end) ||
                                                  (match alist_get (t_d t) p with Some (Some _) => true | _ => false end)
                                      | None => true
                                      end
                    | _, _ => true
                    end) (t_d t).

Lemma dpar_okb_sound m t : dpar_okb m t = true -> dpar_ok m t.
Proof.
  unfold dpar_okb. rewrite forallb_forall. intros E h d p Hin En Ep. specialize (E _ Hin). cbn [fst snd] in E.
  rewrite En, Ep in E. apply orb_prop in E. destruct E as [E|E].
  - left. destruct (descrs m p); [discriminate|discriminate].
  - right. destruct (alist_get (t_d t) p) as [[d'|]|] eqn:G; try discriminate. exists d'. now apply alist_get_some_in.
Qed.
