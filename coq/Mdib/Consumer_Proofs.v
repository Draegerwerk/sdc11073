(* Proofs about the consumer model: what the table updates of a report leave alone, no regression under any
   report sequence (C06) and the mirror step for state and context transactions (C01). *)
From Coq Require Import List ZArith Bool Lia.
From SDC Require Import Mdib.Model Mdib.Proofs Mdib.Proofs_Ctx Mdib.Consumer.
Import ListNotations.
Open Scope Z_scope.

Lemma put_cs_states c h s y : cm_states (put_cs c h s) y = if Z.eqb h y then Some s else cm_states c y.
Proof. reflexivity. Qed.

Lemma put_cc_cstates c h s y : cm_cstates (put_cc c h s) y = if Z.eqb h y then s else cm_cstates c y.
Proof. reflexivity. Qed.

(* everything but the three tables and the two handle domains *)
Definition hdr_same (c c' : cmdib) : Prop :=
  cm_ver c' = cm_ver c /\ cm_seq c' = cm_seq c /\ cm_inst c' = cm_inst c /\ cm_mode c' = cm_mode c /\
  cm_buf c' = cm_buf c.

Lemma hdr_same_refl c : hdr_same c c.
Proof. repeat split. Qed.
Lemma hdr_same_trans a b c : hdr_same a b -> hdr_same b c -> hdr_same a c.
Proof. unfold hdr_same. intuition congruence. Qed.

(* _update_from_states_report for states and for context states: one table [get] / [put], entries with a version
   [vof], an item is taken when its handle is new or its version is higher than the held one *)
Section Gated.
  Variables (V : Type) (get : cmdib -> H -> option V) (put : cmdib -> H -> V -> cmdib) (vof : V -> Z) (tag : Z).
  Hypothesis get_put : forall c k v y, get (put c k v) y = if Z.eqb k y then Some v else get c y.

  Definition accepts (c : cmdib) (h : H) (s : V) : bool :=
    match get c h with Some o => vof o <? vof s | None => true end.
  Definition gstep (c : cmdib) (h : H) (s : V) : cmdib := if accepts c h s then put c h s else c.

  Fixpoint gfold (c : cmdib) (items : list (H * V)) : cmdib * list notif :=
    match items with
    | [] => (c, [])
    | (h, s) :: r => let '(c2, ns) := gfold (gstep c h s) r in (c2, if accepts c h s then (tag, h) :: ns else ns)
    end.

  Lemma gfold_fst c h s r : fst (gfold c ((h, s) :: r)) = fst (gfold (gstep c h s) r).
  Proof. cbn [gfold]. now destruct (gfold (gstep c h s) r). Qed.

  Lemma gfold_inv (P : cmdib -> Prop) : (forall c h v, P c -> P (put c h v)) ->
    forall items c, P c -> P (fst (gfold c items)).
  Proof.
    intros Hp. induction items as [|[h s] r IH]; intros c Hc; [exact Hc|]. rewrite gfold_fst. apply IH.
    unfold gstep. destruct (accepts c h s); [now apply Hp|exact Hc].
  Qed.

  (* one item: what is held afterwards is what was held or the item; what was held is still held, or the item with
     a higher version is *)
  Lemma gstep_published c k s0 h x : get (gstep c k s0) h = Some x -> get c h = Some x \/ (k, s0) = (h, x).
  Proof.
    unfold gstep. destruct (accepts c k s0); [|now left]. rewrite get_put.
    destruct (Z.eqb_spec k h) as [->|_]; [intros [= ->]; now right|now left].
  Qed.

  Lemma gstep_grows c k s0 h s : get c h = Some s -> exists s1, get (gstep c k s0) h = Some s1 /\ vof s <= vof s1.
  Proof.
    intros E. unfold gstep, accepts. destruct (Z.eqb_spec k h) as [->|Hne].
    - rewrite E. destruct (vof s <? vof s0) eqn:L; [|exists s; split; [exact E|lia]].
      exists s0. rewrite get_put, Z.eqb_refl. split; [reflexivity|lia].
    - exists s. split; [|lia]. destruct (match get c k with Some o => vof o <? vof s0 | None => true end); [|exact E].
      rewrite get_put. now destruct (Z.eqb_spec k h).
  Qed.

  Lemma gfold_published items : forall c h s', get (fst (gfold c items)) h = Some s' -> get c h = Some s' \/ In (h, s') items.
  Proof.
    induction items as [|[k s0] r IH]; intros c h s' E; [now left|]. rewrite gfold_fst in E.
    destruct (IH _ h s' E) as [E1|Hi]; [|right; now right].
    destruct (gstep_published c k s0 h s' E1) as [E0|E0]; [now left|right; now left].
  Qed.

  Lemma gfold_grows items : forall c h s, get c h = Some s -> exists s', get (fst (gfold c items)) h = Some s' /\ vof s <= vof s'.
  Proof.
    induction items as [|[k s0] r IH]; intros c h s E; [exists s; split; [exact E|lia]|]. rewrite gfold_fst.
    destruct (gstep_grows c k s0 h s E) as (s1 & E1 & L1). destruct (IH _ h s1 E1) as (s' & E' & L').
    exists s'. split; [exact E'|lia].
  Qed.

  (* every entry is the previous one or one of the items, versions never decrease, nothing disappears *)
  Definition no_regress (items : list (H * V)) (c c' : cmdib) (h : H) : Prop :=
    (forall s', get c' h = Some s' ->
        (get c h = Some s' \/ In (h, s') items) /\ (forall s, get c h = Some s -> vof s <= vof s')) /\
    (forall s, get c h = Some s -> exists s', get c' h = Some s').

  Lemma no_regress_refl items c h : no_regress items c c h.
  Proof.
    split; [|intros s E; now exists s]. intros s' E. split; [now left|].
    intros s Es. rewrite E in Es. injection Es as <-. lia.
  Qed.

  Lemma gfold_no_regress items c h : no_regress items c (fst (gfold c items)) h.
  Proof.
    split.
    - intros s' E. split; [now apply gfold_published|]. intros s Es.
      destruct (gfold_grows items c h s Es) as (s1 & E1 & L). rewrite E in E1. now injection E1 as <-.
    - intros s Es. destruct (gfold_grows items c h s Es) as (s1 & E1 & _). now exists s1.
  Qed.

  (* a report none of whose items is newer than what is held changes no table *)
  Lemma gfold_stale items : forall c,
    (forall h s, In (h, s) items -> exists o, get c h = Some o /\ vof s <= vof o) -> gfold c items = (c, []).
  Proof.
    induction items as [|[k s0] r IH]; intros c Hs; [reflexivity|].
    assert (A : accepts c k s0 = false).
    { unfold accepts. destruct (Hs k s0 (or_introl eq_refl)) as (o & -> & Hle). lia. }
    cbn [gfold]. unfold gstep. rewrite A, IH; [reflexivity|]. intros h s Hi. apply Hs. now right.
  Qed.

  Definition put_step (c : cmdib) (e : H * V) : cmdib := put c (fst e) (snd e).

  (* when every item is accepted (new handle or strictly newer), every item is written and notified *)
  Lemma gfold_fresh items : forall c, NoDup (map fst items) ->
    (forall h s, In (h, s) items -> match get c h with Some o => vof o < vof s | None => True end) ->
    gfold c items = (fold_left put_step items c, map (fun e => (tag, fst e)) items).
  Proof.
    induction items as [|[k s0] r IH]; intros c Hnd Ha; [reflexivity|]. inversion Hnd as [|? ? Hk Hr]; subst.
    assert (A : accepts c k s0 = true).
    { unfold accepts. specialize (Ha k s0 (or_introl eq_refl)). destruct (get c k); [lia|reflexivity]. }
    cbn [gfold fold_left map fst snd]. unfold gstep. rewrite A, IH; [reflexivity|exact Hr|].
    intros h s Hi. rewrite get_put. destruct (Z.eqb_spec k h) as [->|_]; [|apply Ha; now right].
    exfalso. apply Hk. now apply (in_map fst) in Hi.
  Qed.

  (* the two ungated loops of a description modification report: write every item (put_step) / replace the
     known ones *)
  Definition rk_step (c : cmdib) (e : H * V) : cmdib :=
    match get c (fst e) with Some _ => put c (fst e) (snd e) | None => c end.

  Lemma fold_put_get l c : NoDup (map fst l) -> forall y,
    get (fold_left put_step l c) y = match alist_get l y with Some v => Some v | None => get c y end.
  Proof.
    intros Hn. apply (keyed_fold cmdib V (option V) get put_step (fun _ v => Some v)); [|exact Hn].
    intros c0 k v y. apply get_put.
  Qed.

  Lemma fold_rk_get l c : NoDup (map fst l) -> forall y,
    get (fold_left rk_step l c) y =
    match alist_get l y with Some v => match get c y with Some _ => Some v | None => None end | None => get c y end.
  Proof.
    intros Hn. apply (keyed_fold cmdib V (option V) get rk_step (fun old v => match old with Some _ => Some v | None => None end));
      [|exact Hn].
    intros c0 k v y. unfold rk_step. cbn [fst snd]. destruct (get c0 k) eqn:E; [apply get_put|].
    destruct (Z.eqb_spec k y) as [<-|]; [now rewrite E|reflexivity].
  Qed.

  Lemma fold_rk_frame {A} (f : cmdib -> A) : (forall c h v, f (put c h v) = f c) ->
    forall l c, f (fold_left rk_step l c) = f c.
  Proof. intros Hf l. apply fold_frame. intros c e. unfold rk_step. destruct (get c (fst e)); [apply Hf|reflexivity]. Qed.
End Gated.

Arguments put_step {V} put c e.
Arguments rk_step {V} get put c e.
Arguments gfold_inv {V get put vof tag} P _ items c _.
Arguments gfold_fresh {V get put vof tag} get_put items c _ _.
Arguments gfold_stale {V get put vof tag} items c _.
Arguments fold_put_get {V get put} get_put l c _ y.
Arguments fold_rk_get {V get put} get_put l c _ y.
Arguments fold_rk_frame {V get put A} f _ l c.

Definition put_ccs (c : cmdib) (h : H) (s : cstate) : cmdib := put_cc c h (Some s).

Lemma upd_states_gfold c items : upd_states c items = gfold state cm_states put_cs s_ver N_STATE c items.
Proof. reflexivity. Qed.
Lemma upd_cstates_gfold c items : upd_cstates c items = gfold cstate cm_cstates put_ccs c_ver N_CTX c items.
Proof. reflexivity. Qed.

Lemma put_ccs_cstates c h s y : cm_cstates (put_ccs c h s) y = if Z.eqb h y then Some s else cm_cstates c y.
Proof. reflexivity. Qed.

(* filtered removal of context states: the shape of both inner loops of the model (crm_one: context states of a
   removed descriptor; UPDATE of a context descriptor: context states that are not listed) *)
Definition del_cc (c : cmdib) (h : H) : cmdib := put_cc c h None.
Definition cfold (P : H -> cstate -> bool) (l : list H) (c : cmdib) : cmdib :=
  fold_left (fun c' ch => match cm_cstates c' ch with
                          | Some s => if P ch s then del_cc c' ch else c'
                          | None => c'
                          end) l c.

Lemma cfold_inv (Q : cmdib -> Prop) P l : (forall c a, In a l -> Q c -> Q (del_cc c a)) -> forall c, Q c -> Q (cfold P l c).
Proof.
  intros Hd. apply fold_inv_in. intros c a Ha Hc. destruct (cm_cstates c a) as [s|]; [|exact Hc].
  destruct (P a s); [now apply Hd|exact Hc].
Qed.

Lemma cfold_frame {A} (f : cmdib -> A) P l c : (forall c h, f (del_cc c h) = f c) -> f (cfold P l c) = f c.
Proof. intros Hf. apply (cfold_inv (fun c' => f c' = f c)); [intros c0 a _ E; now rewrite Hf|reflexivity]. Qed.

Lemma cfold_cons P a l c :
  cfold P (a :: l) c = cfold P l (match cm_cstates c a with Some s => if P a s then del_cc c a else c | None => c end).
Proof. reflexivity. Qed.

Lemma cfold_cstates P l : forall c ch,
  cm_cstates (cfold P l c) ch =
  match cm_cstates c ch with
  | Some s => if memz ch l && P ch s then None else Some s
  | None => None
  end.
Proof.
  induction l as [|a l IH]; intros c ch; [cbn; destruct (cm_cstates c ch); reflexivity|].
  rewrite cfold_cons, IH, memz_cons.
  destruct (Z.eqb_spec ch a) as [->|Hne]; cbn [orb].
  - destruct (cm_cstates c a) as [s|] eqn:Ea; [|now rewrite Ea].
    destruct (P a s) eqn:Pa; [|now rewrite Ea, Pa, andb_false_r]. unfold del_cc. now rewrite put_cc_cstates, Z.eqb_refl.
  - destruct (cm_cstates c a) as [s|]; [|reflexivity]. destruct (P a s); [|reflexivity].
    unfold del_cc. rewrite put_cc_cstates. now destruct (Z.eqb_spec a ch); [congruence|].
Qed.

Lemma cfold_hdr P l c : hdr_same c (cfold P l c).
Proof. apply (cfold_inv (hdr_same c)); [|apply hdr_same_refl]. intros c0 a _ E. exact E. Qed.

Lemma cfold_cdom P l c : incl l (cm_cdom c) -> cm_cdom (cfold P l c) = cm_cdom c.
Proof.
  intros Hi. apply (cfold_inv (fun c' => cm_cdom c' = cm_cdom c)); [|reflexivity].
  intros c0 a Ha E. cbn [del_cc put_cc cm_cdom]. rewrite E. apply add_dom_known, Hi, Ha.
Qed.

Lemma cfold_cdom_incl P l c : incl (cm_cdom c) (cm_cdom (cfold P l c)).
Proof.
  apply (cfold_inv (fun c' => incl (cm_cdom c) (cm_cdom c'))); [|apply incl_refl].
  intros c0 a _ E. eapply incl_tran; [exact E|apply add_dom_incl].
Qed.

(* crm_one with its inner loop named [cfold]; nothing else is said *)
Lemma crm_one_eq c h :
  crm_one c h =
  cfold (fun _ s => Z.eqb (c_dh s) h) (cm_cdom c)
        (mkCMdib (upd (cm_descrs c) h None) (upd (cm_states c) h None) (cm_cstates c) (cm_ver c) (cm_seq c)
                 (cm_inst c) (cm_mode c) (cm_buf c) (add_dom h (cm_ddom c)) (cm_cdom c)).
Proof. reflexivity. Qed.

Lemma crm_one_descrs c h x : cm_descrs (crm_one c h) x = if Z.eqb h x then None else cm_descrs c x.
Proof. rewrite crm_one_eq, (cfold_frame cm_descrs) by reflexivity. reflexivity. Qed.

Lemma crm_one_states c h x : cm_states (crm_one c h) x = if Z.eqb h x then None else cm_states c x.
Proof. rewrite crm_one_eq, (cfold_frame cm_states) by reflexivity. reflexivity. Qed.

Lemma crm_one_cdom c h : cm_cdom (crm_one c h) = cm_cdom c.
Proof. rewrite crm_one_eq, cfold_cdom; [reflexivity|apply incl_refl]. Qed.

Lemma crm_one_cstates c h ch :
  cm_cstates (crm_one c h) ch =
  match cm_cstates c ch with
  | Some s => if memz ch (cm_cdom c) && Z.eqb (c_dh s) h then None else Some s
  | None => None
  end.
Proof. rewrite crm_one_eq, cfold_cstates. reflexivity. Qed.

Lemma crm_list_descrs l c x : cm_descrs (fold_left crm_one l c) x = if memz x l then None else cm_descrs c x.
Proof. apply (fold_kill cm_descrs crm_one crm_one_descrs). Qed.

Lemma crm_list_states l c x : cm_states (fold_left crm_one l c) x = if memz x l then None else cm_states c x.
Proof. apply (fold_kill cm_states crm_one crm_one_states). Qed.

Lemma crm_list_cdom l c : cm_cdom (fold_left crm_one l c) = cm_cdom c.
Proof. apply fold_frame, crm_one_cdom. Qed.

Lemma crm_list_cstates l : forall c ch,
  cm_cstates (fold_left crm_one l c) ch =
  match cm_cstates c ch with
  | Some s => if memz ch (cm_cdom c) && memz (c_dh s) l then None else Some s
  | None => None
  end.
Proof.
  induction l as [|a l IH]; intros c ch; cbn [fold_left].
  - cbn. rewrite andb_false_r. destruct (cm_cstates c ch); reflexivity.
  - rewrite IH, crm_one_cstates, crm_one_cdom. destruct (cm_cstates c ch) as [s|]; [|reflexivity]. rewrite memz_cons.
    destruct (memz ch (cm_cdom c)); cbn [andb]; [|reflexivity]. destruct (c_dh s =? a); reflexivity.
Qed.

Lemma crm_list_ddom l c : incl (cm_ddom c) (cm_ddom (fold_left crm_one l c)).
Proof.
  apply (fold_inv (fun c' => incl (cm_ddom c) (cm_ddom c'))); [|apply incl_refl].
  intros c0 a E. eapply incl_tran; [exact E|]. rewrite crm_one_eq, (cfold_frame cm_ddom) by reflexivity. apply add_dom_incl.
Qed.

Lemma crm_list_hdr l c : hdr_same c (fold_left crm_one l c).
Proof.
  apply fold_inv; [|apply hdr_same_refl]. intros c0 a E. eapply hdr_same_trans; [exact E|].
  rewrite crm_one_eq. eapply hdr_same_trans; [|apply cfold_hdr]. repeat split.
Qed.

(* the three kinds of report part, one loop at a time *)
Definition create_step (acc : cmdib * list notif * bool) (e : H * descr) : cmdib * list notif * bool :=
  let '(c0, ns, failed) := acc in
  if failed then acc else
  match cm_descrs c0 (fst e) with
  | Some _ => (c0, ns, true)
  | None => (put_cd c0 (fst e) (Some (snd e)), ns ++ [(N_NEW, fst e)], false)
  end.

Definition upd_descr_step (cs : list (H * cstate)) (c' : cmdib) (e : H * descr) : cmdib :=
  let c'' := match cm_descrs c' (fst e) with Some _ => put_cd c' (fst e) (Some (snd e)) | None => c' end in
  if Z.eqb (d_kind (snd e)) K_CTX then
    cfold (fun ch s => Z.eqb (c_dh s) (fst e) && negb (alist_has cs ch)) (cm_cdom c'') c''
  else c''.

Definition del_step (acc : cmdib * list notif) (e : H * descr) : cmdib * list notif :=
  let '(c0, ns0) := acc in
  let sub := csubtree c0 (fst e) in
  (fold_left crm_one sub c0, ns0 ++ map (fun h => (N_DEL, h)) sub).

(* apply_part with its loops named by the step functions above; nothing else is said *)
Lemma apply_part_eq c p :
  apply_part c p =
  if Z.eqb (dp_mod p) 0 then
    let '(c1, ns, failed) := fold_left create_step (dp_descrs p) (c, [], false) in
    if failed then (c1, ns, true) else
    (fold_left (put_step put_ccs) (dp_cstates p) (fold_left (put_step put_cs) (dp_states p) c1), ns, false)
  else if Z.eqb (dp_mod p) 1 then
    (fold_left (rk_step cm_cstates put_ccs) (dp_cstates p)
       (fold_left (rk_step cm_states put_cs) (dp_states p) (fold_left (upd_descr_step (dp_cstates p)) (dp_descrs p) c)),
     map (fun e => (N_UPD, fst e)) (dp_descrs p), false)
  else
    let '(c1, ns) := fold_left del_step (dp_descrs p) (c, []) in (c1, ns, false).
Proof. reflexivity. Qed.

(* a relation that holds across every elementary table update holds across a whole part / report *)
Section PartRel.
  Variable R : list (H * descr) -> list (H * state) -> list (H * cstate) -> cmdib -> cmdib -> Prop.
  Hypothesis R_refl : forall Ds Ss Cs c, R Ds Ss Cs c c.
  Hypothesis R_trans : forall Ds Ss Cs a b c, R Ds Ss Cs a b -> R Ds Ss Cs b c -> R Ds Ss Cs a c.
  Hypothesis R_mono : forall Ds Ss Cs Ds' Ss' Cs' a b,
    incl Ds Ds' -> incl Ss Ss' -> incl Cs Cs' -> R Ds Ss Cs a b -> R Ds' Ss' Cs' a b.
  Hypothesis R_cd : forall Ds Ss Cs c h d, In (h, d) Ds -> R Ds Ss Cs c (put_cd c h (Some d)).
  Hypothesis R_cs : forall Ds Ss Cs c h s, In (h, s) Ss -> R Ds Ss Cs c (put_cs c h s).
  Hypothesis R_cc : forall Ds Ss Cs c h s, In (h, s) Cs -> R Ds Ss Cs c (put_ccs c h s).
  Hypothesis R_cfold : forall Ds Ss Cs P l c, R Ds Ss Cs c (cfold P l c).
  Hypothesis R_rm : forall Ds Ss Cs l c, R Ds Ss Cs c (fold_left crm_one l c).

  Lemma part_rel c p : R (dp_descrs p) (dp_states p) (dp_cstates p) c (fst (fst (apply_part c p))).
  Proof.
    set (Ds := dp_descrs p). set (Ss := dp_states p). set (Cs := dp_cstates p).
    assert (Hcs : forall c' e, In e Ss -> R Ds Ss Cs c c' -> R Ds Ss Cs c (put_cs c' (fst e) (snd e))).
    { intros c' e Hi Ha. eapply R_trans; [exact Ha|]. apply R_cs. now destruct e. }
    assert (Hcc : forall c' e, In e Cs -> R Ds Ss Cs c c' -> R Ds Ss Cs c (put_ccs c' (fst e) (snd e))).
    { intros c' e Hi Ha. eapply R_trans; [exact Ha|]. apply R_cc. now destruct e. }
    assert (Hcd : forall c' e, In e Ds -> R Ds Ss Cs c c' -> R Ds Ss Cs c (put_cd c' (fst e) (Some (snd e)))).
    { intros c' e Hi Ha. eapply R_trans; [exact Ha|]. apply R_cd. now destruct e. }
    rewrite apply_part_eq. destruct (dp_mod p =? 0).
    - assert (G : R Ds Ss Cs c (fst (fst (fold_left create_step (dp_descrs p) (c, [], false))))).
      { apply (fold_inv_in (fun acc => R Ds Ss Cs c (fst (fst acc)))); [|apply R_refl].
        intros [[c0 ns] failed] e Hi Ha. cbn [fst] in Ha. unfold create_step.
        destruct failed; [exact Ha|]. destruct (cm_descrs c0 (fst e)); cbn [fst]; [exact Ha|now apply Hcd]. }
      destruct (fold_left create_step (dp_descrs p) (c, [], false)) as [[c1 ns] failed]. cbn [fst] in G.
      destruct failed; cbn [fst]; [exact G|].
      apply (fold_inv_in (R Ds Ss Cs c)); [exact Hcc|]. apply (fold_inv_in (R Ds Ss Cs c)); [exact Hcs|exact G].
    - destruct (dp_mod p =? 1); cbn [fst].
      + apply (fold_inv_in (R Ds Ss Cs c)).
        { intros c' e Hi Ha. unfold rk_step. destruct (cm_cstates c' (fst e)); [now apply Hcc|exact Ha]. }
        apply (fold_inv_in (R Ds Ss Cs c)).
        { intros c' e Hi Ha. unfold rk_step. destruct (cm_states c' (fst e)); [now apply Hcs|exact Ha]. }
        apply (fold_inv_in (R Ds Ss Cs c)); [|apply R_refl].
        intros c' e Hi Ha. unfold upd_descr_step.
        assert (G : R Ds Ss Cs c (match cm_descrs c' (fst e) with
                                  | Some _ => put_cd c' (fst e) (Some (snd e)) | None => c' end)).
        { destruct (cm_descrs c' (fst e)); [now apply Hcd|exact Ha]. }
        destruct (d_kind (snd e) =? K_CTX); [|exact G]. eapply R_trans; [exact G|apply R_cfold].
      + assert (G : R Ds Ss Cs c (fst (fold_left del_step (dp_descrs p) (c, [])))).
        { apply (fold_inv (fun acc => R Ds Ss Cs c (fst acc))); [|apply R_refl].
          intros [c0 ns0] e Ha. cbn [fst] in *. eapply R_trans; [exact Ha|apply R_rm]. }
        destruct (fold_left del_step (dp_descrs p) (c, [])) as [c1 ns]. exact G.
  Qed.

  Lemma parts_rel ps : forall c,
    R (concat (map dp_descrs ps)) (concat (map dp_states ps)) (concat (map dp_cstates ps)) c (fst (apply_parts c ps)).
  Proof.
    induction ps as [|p ps IH]; intros c; cbn [apply_parts]; [apply R_refl|].
    pose proof (part_rel c p) as G. destruct (apply_part c p) as [[c1 ns] failed]. cbn [fst] in G.
    cbn [map concat].
    assert (G1 : R (dp_descrs p ++ concat (map dp_descrs ps)) (dp_states p ++ concat (map dp_states ps))
                   (dp_cstates p ++ concat (map dp_cstates ps)) c c1).
    { eapply R_mono; [| | |exact G]; apply incl_appl, incl_refl. }
    destruct failed; cbn [fst]; [exact G1|].
    specialize (IH c1). destruct (apply_parts c1 ps) as [c2 ns2]. cbn [fst] in *.
    eapply R_trans; [exact G1|]. eapply R_mono; [| | |exact IH]; apply incl_appr, incl_refl.
  Qed.
End PartRel.

Lemma apply_parts_hdr ps c : hdr_same c (fst (apply_parts c ps)).
Proof.
  apply (parts_rel (fun _ _ _ => hdr_same)); intros; try (repeat split; fail).
  - eapply hdr_same_trans; eassumption.
  - assumption.
  - apply cfold_hdr.
  - apply crm_list_hdr.
Qed.

(* the MdibVersion gate: a report older than what is held is dropped; any other has its version group taken over
   and is applied *)
Lemma process_cases c r :
  (vg_ver (report_vg r) < cm_ver c /\ process c r = (c, [])) \/
  (cm_ver c <= vg_ver (report_vg r) /\
   process c r = match r with
                 | RState _ items => upd_states (set_vg c (report_vg r)) items
                 | RCtx _ items => upd_cstates (set_vg c (report_vg r)) items
                 | RDescr _ parts => apply_parts (set_vg c (report_vg r)) parts
                 end).
Proof.
  unfold process. destruct (Z.ltb_spec (vg_ver (report_vg r)) (cm_ver c)) as [L|G]; [left|right]; now split.
Qed.

(* ... and in the second case nothing but tables and domains changes afterwards *)
Lemma process_hdr c r :
  process c r = (c, []) \/
  (hdr_same (set_vg c (report_vg r)) (fst (process c r)) /\ cm_ver c <= vg_ver (report_vg r)).
Proof.
  destruct (process_cases c r) as [[_ ->]|[G ->]]; [now left|right]. split; [|exact G].
  destruct r as [vg items|vg items|vg parts].
  - rewrite upd_states_gfold. apply gfold_inv; [|apply hdr_same_refl]. intros c0 h v E. exact E.
  - rewrite upd_cstates_gfold. apply gfold_inv; [|apply hdr_same_refl]. intros c0 h v E. exact E.
  - apply apply_parts_hdr.
Qed.

Lemma process_accept c r : cm_ver c <= vg_ver (report_vg r) ->
  process c r = match r with
                | RState _ items => upd_states (set_vg c (report_vg r)) items
                | RCtx _ items => upd_cstates (set_vg c (report_vg r)) items
                | RDescr _ parts => apply_parts (set_vg c (report_vg r)) parts
                end.
Proof. intros G. destruct (process_cases c r) as [[L _]|[_ E]]; [lia|exact E]. Qed.

Definition with_mode (c : cmdib) (md : cmode) (bf : list report) : cmdib :=
  mkCMdib (cm_descrs c) (cm_states c) (cm_cstates c) (cm_ver c) (cm_seq c) (cm_inst c) md bf (cm_ddom c) (cm_cdom c).

(* an initialized consumer processes a report of its own sequence and instance; every other report changes at
   most mode and buffer *)
Lemma receive_cases c r :
  (cm_mode c = CInitialized /\ vg_seq (report_vg r) = cm_seq c /\ vg_inst (report_vg r) = cm_inst c /\
   receive c r = process c r) \/
  (exists md bf, receive c r = (with_mode c md bf, [])).
Proof.
  unfold receive. destruct c as [ds ss cs v sq it md bf dd cd]. cbn [cm_mode cm_seq cm_inst].
  destruct md; [right; eexists _, _; reflexivity..|].
  destruct (Z.eqb_spec (vg_seq (report_vg r)) sq) as [Es|]; [|right; eexists _, _; reflexivity].
  destruct (Z.eqb_spec (vg_inst (report_vg r)) it) as [Ei|]; [|right; eexists _, _; reflexivity].
  left. repeat split; assumption.
Qed.

Lemma receive_accept c r :
  cm_mode c = CInitialized -> vg_seq (report_vg r) = cm_seq c -> vg_inst (report_vg r) = cm_inst c ->
  receive c r = process c r.
Proof.
  intros Hm Hs Hi. unfold receive. rewrite Hm, Hs, Hi, !Z.eqb_refl. cbn [andb]. rewrite <- Hm. now destruct c.
Qed.

Lemma receive_seq_inst c r : cm_seq (fst (receive c r)) = cm_seq c /\ cm_inst (fst (receive c r)) = cm_inst c.
Proof.
  destruct (receive_cases c r) as [(_ & Es & Ei & ->)|(md & bf & ->)]; [|split; reflexivity].
  destruct (process_hdr c r) as [->|[(_ & S & I & _) _]]; [split; reflexivity|]. rewrite S, I. now split.
Qed.

Lemma process_ver_monotone c r : cm_ver c <= cm_ver (fst (process c r)).
Proof. destruct (process_hdr c r) as [->|[(V & _) G]]; [cbn; lia|]. rewrite V. exact G. Qed.

Lemma receive_ver_monotone c r : cm_ver c <= cm_ver (fst (receive c r)).
Proof.
  destruct (receive_cases c r) as [(_ & _ & _ & ->)|(md & bf & ->)]; [apply process_ver_monotone|cbn; lia].
Qed.

(* a duplicated state report (nothing in it newer than what is held) changes no table and raises no
   notification; only the version group is taken over (it is >= the held one) *)
Theorem duplicate_state_report_noop c vg items :
  cm_ver c <= vg_ver vg ->
  (forall h s, In (h, s) items -> exists o, cm_states c h = Some o /\ s_ver s <= s_ver o) ->
  process c (RState vg items) = (set_vg c vg, []).
Proof. intros Hv Hs. rewrite process_accept by exact Hv. apply (gfold_stale (get := cm_states)), Hs. Qed.

Theorem duplicate_ctx_report_noop c vg items :
  cm_ver c <= vg_ver vg ->
  (forall h s, In (h, s) items -> exists o, cm_cstates c h = Some o /\ c_ver s <= c_ver o) ->
  process c (RCtx vg items) = (set_vg c vg, []).
Proof. intros Hv Hs. rewrite process_accept by exact Hv. apply (gfold_stale (get := cm_cstates)), Hs. Qed.

Lemma receive_invalid c r : cm_mode c = CInvalid -> receive c r = (c, []).
Proof. destruct c. cbn. intros ->. reflexivity. Qed.

Definition mirrors (c : cmdib) (m : mdib) : Prop :=
  (forall h, cm_descrs c h = descrs m h) /\ (forall h, cm_states c h = states m h) /\
  (forall h, cm_cstates c h = cstates m h) /\ cm_ver c = ver m /\ cm_mode c = CInitialized.

(* the report a provider emits for a committed state transaction with item list [t_s t] *)
Definition state_report (m' : mdib) (seq inst : Z) (t : tx) : report := RState (mkVg (ver m') seq inst) (t_s t).

Theorem mirror_step_state_tx k m t c :
  stx_ok k m t -> t_s t <> [] -> mirrors c m ->
  let m' := commit_states m t in
  let r := state_report m' (cm_seq c) (cm_inst c) t in
  mirrors (fst (receive c r)) m' /\
  snd (receive c r) = map (fun e => (N_STATE, fst e)) (t_s t).
Proof.
  intros Hok Hne (Md & Ms & Mc & Mv & Mm). cbv zeta.
  destruct (commit_states_pointwise k m t Hok) as (S & D & C & _).
  assert (V : ver (commit_states m t) = ver m + 1).
  { rewrite commit_states_ver. destruct (t_s t); [contradiction|reflexivity]. }
  unfold state_report. rewrite receive_accept, process_accept by (try assumption; try reflexivity; cbn; lia).
  cbn [report_vg]. set (c1 := set_vg _ _).
  rewrite upd_states_gfold, (gfold_fresh put_cs_states) by
    (try apply (sx_nodup _ _ _ Hok); intros h s Hi; cbn; rewrite Ms;
     destruct (sx_items _ _ _ Hok h s Hi) as (o & -> & E & _); lia).
  cbn [fst snd]. split; [|reflexivity]. repeat split.
  - intros h. rewrite (fold_frame cm_descrs) by reflexivity. cbn. now rewrite Md, D.
  - intros h. rewrite (fold_put_get put_cs_states) by apply (sx_nodup _ _ _ Hok). cbn. now rewrite S, Ms.
  - intros h. rewrite (fold_frame cm_cstates) by reflexivity. cbn. now rewrite Mc, C.
  - rewrite (fold_frame cm_ver) by reflexivity. cbn. lia.
  - rewrite (fold_frame cm_mode) by reflexivity. exact Mm.
Qed.

(* provider and consumer side by side: every committed, non-empty state transaction sends its report, which
   the consumer processes before the next transaction (emission order) *)
Definition pc_step (seq inst : Z) (mc : mdib * cmdib) (x : txn) : mdib * cmdib :=
  let '(m, c) := mc in
  let '(k, ab, acts) := x in
  match ab, body k m empty_tx acts with
  | None, Ok t =>
      match t_s t with
      | [] => (m, c)
      | _ => let m' := commit_states m t in (m', fst (receive c (state_report m' seq inst t)))
      end
  | _, _ => (m, c)
  end.

(* a state transaction changes nothing and sends nothing, or commits a well-formed non-empty item list *)
Lemma pc_step_cases seq inst m c x : state_txn x ->
  (exec1 m x = m /\ pc_step seq inst (m, c) x = (m, c)) \/
  exists k t, stx_ok k m t /\ t_s t <> [] /\ exec1 m x = commit_states m t /\
    pc_step seq inst (m, c) x = (commit_states m t, fst (receive c (state_report (commit_states m t) seq inst t))).
Proof.
  destruct x as [[k ab] acts]. intros [Hk Ho]. unfold pc_step, exec1.
  destruct ab as [n|]; [left; split; [apply abort_never_commits|reflexivity]|].
  unfold transaction. destruct (body k m empty_tx acts) as [t|e] eqn:B; [|left; split; [now destruct e|reflexivity]].
  assert (Hok : stx_ok k m t) by (eapply body_state_ok; try eassumption; apply empty_stx_ok).
  replace (k =? 6) with false by lia. cbn [fst]. destruct (t_s t) as [|i0 l0] eqn:E.
  - left. split; [apply commit_states_empty; [exact E|apply (sx_c _ _ _ Hok)]|reflexivity].
  - right. exists k, t. rewrite E. split; [exact Hok|]. split; [discriminate|]. split; reflexivity.
Qed.

Lemma pc_step_provider seq inst m c x : state_txn x -> fst (pc_step seq inst (m, c) x) = exec1 m x.
Proof. intros Hx. destruct (pc_step_cases seq inst m c x Hx) as [[-> ->]|(k & t & _ & _ & -> & ->)]; reflexivity. Qed.

Lemma pc_step_mirrors m c x : state_txn x -> mirrors c m ->
  mirrors (snd (pc_step (cm_seq c) (cm_inst c) (m, c) x)) (exec1 m x) /\
  cm_seq (snd (pc_step (cm_seq c) (cm_inst c) (m, c) x)) = cm_seq c /\
  cm_inst (snd (pc_step (cm_seq c) (cm_inst c) (m, c) x)) = cm_inst c.
Proof.
  intros Hx Hm. destruct (pc_step_cases (cm_seq c) (cm_inst c) m c x Hx) as [[-> ->]|(k & t & Hok & Hne & -> & ->)].
  - split; [exact Hm|split; reflexivity].
  - cbn [snd]. split; [apply (mirror_step_state_tx k m t c Hok Hne Hm)|apply receive_seq_inst].
Qed.

(* the items of an EpisodicContextReport: the transaction's context items (none of them a deletion) *)
Definition ctx_report_items (t : tx) : list (H * cstate) :=
  flat_map (fun e => match snd e with Some c => [(fst e, c)] | None => [] end) (t_c t).
Definition no_deletion (t : tx) : Prop := forall h, ~ In (h, None) (t_c t).

Lemma ctx_report_items_get t h : no_deletion t ->
  alist_get (ctx_report_items t) h = match alist_get (t_c t) h with Some (Some c) => Some c | _ => None end.
Proof.
  unfold ctx_report_items, no_deletion. induction (t_c t) as [|[k x] r IH]; intros Hn; cbn [flat_map alist_get]; [reflexivity|].
  destruct x as [c|]; [|exfalso; apply (Hn k); now left].
  cbn [snd fst app alist_get]. destruct (Z.eqb h k); [reflexivity|]. apply IH. intros h0 Hi. apply (Hn h0). now right.
Qed.

Lemma ctx_report_items_keys t : no_deletion t -> map fst (ctx_report_items t) = map fst (t_c t).
Proof.
  unfold ctx_report_items, no_deletion. induction (t_c t) as [|[k x] r IH]; intros Hn; [reflexivity|].
  destruct x as [c|]; [|exfalso; apply (Hn k); now left]. cbn. f_equal. apply IH. intros h0 Hi. apply (Hn h0). now right.
Qed.

Theorem mirror_step_ctx_tx m t c :
  ctx_ok m t -> no_deletion t -> t_c t <> [] -> mirrors c m ->
  let m' := commit_states m t in
  let r := RCtx (mkVg (ver m') (cm_seq c) (cm_inst c)) (ctx_report_items t) in
  mirrors (fst (receive c r)) m' /\
  snd (receive c r) = map (fun e => (N_CTX, fst e)) (ctx_report_items t).
Proof.
  intros Hok Hnd Hne (Md & Ms & Mc & Mv & Mm). cbv zeta.
  destruct (commit_ctx_pointwise m t Hok) as (D & S & P & _).
  assert (V : ver (commit_states m t) = ver m + 1).
  { rewrite commit_states_ver. rewrite (cx_s _ _ Hok). destruct (t_c t); [contradiction|reflexivity]. }
  assert (Hkeys : NoDup (map fst (ctx_report_items t))) by (rewrite ctx_report_items_keys by assumption; apply (cx_nodup _ _ Hok)).
  rewrite receive_accept, process_accept by (try assumption; try reflexivity; cbn; lia).
  cbn [report_vg]. set (c1 := set_vg _ _).
  rewrite upd_cstates_gfold, (gfold_fresh put_ccs_cstates); [|exact Hkeys|].
  2:{ intros h s Hi. cbn. rewrite Mc.
      assert (G : alist_get (ctx_report_items t) h = Some s) by (now apply alist_get_in).
      rewrite ctx_report_items_get in G by assumption.
      destruct (alist_get (t_c t) h) as [[c0|]|] eqn:G2; try discriminate. injection G as ->.
      apply alist_get_some_in in G2. pose proof (cx_items _ _ Hok _ _ G2) as I. unfold item_ok in I.
      destruct (cstates m h) as [o|]; [destruct I as (E & _); lia|exact Logic.I]. }
  cbn [fst snd]. split; [|reflexivity]. repeat split.
  - intros h. rewrite (fold_frame cm_descrs) by reflexivity. cbn. now rewrite Md, D.
  - intros h. rewrite (fold_frame cm_states) by reflexivity. cbn. now rewrite Ms, S.
  - intros h. rewrite (fold_put_get put_ccs_cstates) by exact Hkeys. rewrite P, ctx_report_items_get by assumption.
    cbn. rewrite Mc. destruct (alist_get (t_c t) h) as [[c0|]|] eqn:G; try reflexivity.
    exfalso. apply (Hnd h). now apply alist_get_some_in.
  - rewrite (fold_frame cm_ver) by reflexivity. cbn. lia.
  - rewrite (fold_frame cm_mode) by reflexivity. exact Mm.
Qed.
