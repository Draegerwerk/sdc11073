(* Context association (C10), what holds without an invariant of the MDIB: [st_step], the open / leave / enter
   clauses of one context state; set_location, pointwise; SetContextState commits once or changes nothing. *)
From Coq Require Import List ZArith Bool.
From SDC Require Import Mdib.Model Mdib.Base Mdib.Context.
Import ListNotations.
Open Scope Z_scope.

(* the disassociated version of a context state in a transaction that will create MdibVersion v *)
Definition dis_of (v : Z) (c : cstate) : cstate :=
  mkCState (c_dh c) (c_dver c) (c_ver c + 1) A_DIS (c_bind c)
           (match c_unbind c with None => Some v | u => u end) (c_pay c).

Definition needs_dis (dh : H) (c : cstate) : bool :=
  Z.eqb (c_dh c) dh && (negb (Z.eqb (c_assoc c) A_DIS) || (match c_unbind c with None => true | Some _ => false end)).

Lemma dis_not_assoc : A_DIS <> A_ASSOC.
Proof. discriminate. Qed.

Lemma needs_dis_assoc dh c : c_assoc c = A_ASSOC -> needs_dis dh c = (c_dh c =? dh).
Proof. intros E. unfold needs_dis. rewrite E. apply andb_true_r. Qed.

Lemma needs_dis_other dh c : c_dh c <> dh -> needs_dis dh c = false.
Proof. intros N. unfold needs_dis. now destruct (Z.eqb_spec (c_dh c) dh). Qed.

Lemma dis_of_unbind v c : c_unbind c = None -> c_unbind (dis_of v c) = Some v.
Proof. intros E. cbn. now rewrite E. Qed.

(* [o] = the committed state under the same handle (if any), [c'] = the state after the operation, [v] = the
   MdibVersion the operation creates: an associated state is open; one that stopped being associated is
   disassociated with unbinding version v; one that became associated (or is new) has binding version v *)
Definition st_step (v : Z) (o : option cstate) (c' : cstate) : Prop :=
  (c_assoc c' = A_ASSOC -> c_unbind c' = None) /\
  (forall c, o = Some c -> c_assoc c = A_ASSOC -> c_assoc c' <> A_ASSOC ->
     c_assoc c' = A_DIS /\ c_unbind c' = Some v) /\
  (c_assoc c' = A_ASSOC -> match o with Some c => c_assoc c <> A_ASSOC | None => True end -> c_bind c' = Some v).

(* it looks at association, binding and unbinding version only: what write_entity copies *)
Lemma st_step_ext v o c c' :
  c_assoc c' = c_assoc c -> c_bind c' = c_bind c -> c_unbind c' = c_unbind c -> st_step v o c -> st_step v o c'.
Proof. intros E1 E2 E3. unfold st_step. now rewrite E1, E2, E3. Qed.

Lemma st_step_same v c : (c_assoc c = A_ASSOC -> c_unbind c = None) -> st_step v (Some c) c.
Proof.
  intros Ho. split; [exact Ho|]. split; [intros c0 [= <-] Ea Hn; contradiction|intros Ea Hm; contradiction].
Qed.

Lemma st_step_dis_of v c : (c_assoc c = A_ASSOC -> c_unbind c = None) -> st_step v (Some c) (dis_of v c).
Proof.
  intros Ho. split; [intros Ea; now apply dis_not_assoc in Ea|]. split; [|intros Ea; now apply dis_not_assoc in Ea].
  intros c0 [= <-] Ea _. split; [reflexivity|]. now apply dis_of_unbind, Ho.
Qed.

Lemma st_step_new v c' : c_unbind c' = None -> (c_assoc c' = A_ASSOC -> c_bind c' = Some v) -> st_step v None c'.
Proof. intros Eu Eb. split; [now intros _|]. split; [discriminate|intros Ea _; now apply Eb]. Qed.

(* the leave and enter clauses for a whole table, when every state of [new] is a step of the one [old] holds *)
Lemma st_step_clauses v (old new : H -> option cstate) :
  (forall k c', new k = Some c' -> st_step v (old k) c') ->
  (forall k c c', old k = Some c -> new k = Some c' -> c_assoc c = A_ASSOC -> c_assoc c' <> A_ASSOC ->
     c_assoc c' = A_DIS /\ c_unbind c' = Some v) /\
  (forall k c', new k = Some c' -> c_assoc c' = A_ASSOC ->
     match old k with Some c => c_assoc c <> A_ASSOC | None => True end -> c_bind c' = Some v).
Proof.
  intros S. split.
  - intros k c c' E E' Ea Hn. destruct (S k c' E') as (_ & L & _). exact (L c E Ea Hn).
  - intros k c' E' Ea Hm. destruct (S k c' E') as (_ & _ & B). exact (B Ea Hm).
Qed.

(* what disassociate_all(dh) puts into the transaction for the state k, unless k is in it already *)
Definition dis_item (m : mdib) (dh k : H) : option (option cstate) :=
  match cstates m k with
  | Some c => if needs_dis dh c then Some (Some (dis_of (ver m + 1) c)) else None
  | None => None
  end.

Definition disall_step (m : mdib) (dh : H) (t : tx) (h : H) : tx :=
  match dis_item m dh h with
  | Some x => if alist_has (t_c t) h then t else mkTx (t_d t) (t_s t) (alist_set (t_c t) h x)
  | None => t
  end.

(* ctx_disall with its loop body named [disall_step]; nothing else is said *)
Lemma ctx_disall_eq m t dh : ctx_disall m t dh None = Ok (fold_left (disall_step m dh) (cdom m) t).
Proof.
  unfold ctx_disall. f_equal. apply fold_left_ext. intros t' h.
  unfold disall_step, dis_item, needs_dis, dis_of, A_DIS. destruct (cstates m h) as [c|]; [|reflexivity].
  destruct (c_dh c =? dh); cbn [negb andb orb]; [|reflexivity].
  destruct (negb (c_assoc c =? 3) || _); [reflexivity|]. now destruct (alist_has (t_c t') h).
Qed.

(* the first item written for a handle stays *)
Lemma disall_step_get m dh t h k :
  alist_get (t_c (disall_step m dh t h)) k =
  match alist_get (t_c t) k with Some x => Some x | None => if Z.eqb k h then dis_item m dh h else None end.
Proof.
  unfold disall_step, alist_has. destruct (dis_item m dh h) as [x|]; [destruct (alist_get (t_c t) h) eqn:G|]; cbn [t_c].
  - destruct (Z.eqb_spec k h) as [->|_]; [now rewrite G|now destruct (alist_get (t_c t) k)].
  - rewrite alist_get_set. destruct (Z.eqb_spec k h) as [->|_]; [now rewrite G|now destruct (alist_get (t_c t) k)].
  - now destruct (alist_get (t_c t) k), (k =? h).
Qed.

Lemma disall_fold_get m dh l : forall t k,
  alist_get (t_c (fold_left (disall_step m dh) l t)) k =
  match alist_get (t_c t) k with Some x => Some x | None => if memz k l then dis_item m dh k else None end.
Proof.
  induction l as [|h r IH]; intros t k; cbn [fold_left]; [now destruct (alist_get (t_c t) k)|].
  rewrite IH, disall_step_get, memz_cons. destruct (alist_get (t_c t) k); [reflexivity|].
  destruct (Z.eqb_spec k h) as [->|_]; [|reflexivity]. cbn [orb].
  destruct (dis_item m dh h); [reflexivity|now destruct (memz h r)].
Qed.

(* disassociate_all on an empty transaction *)
Lemma ctx_disall_spec m dh :
  exists t1, ctx_disall m empty_tx dh None = Ok t1 /\ t_s t1 = [] /\ NoDup (map fst (t_c t1)) /\
    forall k, alist_get (t_c t1) k = if memz k (cdom m) then dis_item m dh k else None.
Proof.
  eexists. split; [apply ctx_disall_eq|]. split; [|split; [|intros k; now rewrite disall_fold_get]].
  - apply (fold_frame t_s). intros t h. unfold disall_step.
    destruct (dis_item m dh h); [destruct (alist_has (t_c t) h)|]; reflexivity.
  - apply (fold_inv (fun t => NoDup (map fst (t_c t)))); [|constructor]. intros t h Hn. unfold disall_step.
    destruct (dis_item m dh h) as [x|]; [destruct (alist_has (t_c t) h)|]; try exact Hn. apply (alist_set_nodup _ h x Hn).
Qed.

(* every state's handle stays listed across a write-back *)
Lemma overlaid_cover m t m' : overlaid m t m' -> (forall k c, cstates m k = Some c -> In k (cdom m)) ->
  forall k c, cstates m' k = Some c -> In k (cdom m').
Proof.
  intros OV Hcov k c E. apply (ov_cdom _ _ _ OV). rewrite (ov_cstates _ _ _ OV) in E.
  destruct (alist_get (t_c t) k) eqn:G; [right|left; now apply (Hcov k c)].
  intros. apply alist_get_some_in in G. now apply (in_map fst) in G.
Qed.

(* a location change for a descriptor that is missing or not a context descriptor is rejected *)
Lemma set_location_rejected m dh h p :
  (descrs m dh = None \/ exists d, descrs m dh = Some d /\ d_kind d <> K_CTX) -> fst (set_location m dh h p) = m.
Proof.
  intros Hx. unfold set_location, transaction. cbn [body apply_action]. unfold ctx_disall. cbv beta iota.
  unfold ctx_mk. destruct (alist_has _ h); [reflexivity|].
  destruct Hx as [->|(d & -> & Hk)]; [reflexivity|].
  destruct (Z.eqb_spec (d_kind d) K_CTX); [contradiction|]. reflexivity.
Qed.

Section SetLocation.
  Variables (m : mdib) (dh h : H) (p : Z) (d : descr).
  Hypothesis Hd : descrs m dh = Some d.
  Hypothesis Hk : d_kind d = K_CTX.
  Hypothesis Hfresh : cstates m h = None.

  (* otherwise, with an unused handle, it commits one context transaction: disassociate_all's items and the new state *)
  Lemma set_location_commit :
    exists t,
      (forall k, alist_get (t_c t) k =
                 if Z.eqb k h then Some (Some (mkCState dh (d_ver d) 0 A_ASSOC (Some (ver m + 1)) None p))
                 else if memz k (cdom m) then dis_item m dh k else None) /\
      set_location m dh h p = (commit_states m t, 0) /\
      ver (commit_states m t) = ver m + 1 /\ overlaid m t (commit_states m t).
  Proof.
    destruct (ctx_disall_spec m dh) as (t1 & E1 & S0 & Hnd1 & C0). eexists. split; [|split; [|split]].
    2:{ unfold set_location, transaction. cbn [body apply_action]. rewrite E1.
        unfold ctx_mk, alist_has. rewrite C0. unfold dis_item at 1. rewrite Hfresh, Hd, Hk.
        destruct (memz h (cdom m)); reflexivity. }
    - intros k. cbn [t_c]. now rewrite alist_get_set, C0.
    - rewrite commit_states_ver. cbn [t_s t_c]. rewrite S0.
      now destruct (alist_set (t_c t1) h _) eqn:E; [apply alist_set_nonempty in E|].
    - apply commit_states_spec; cbn [t_s t_c]; [rewrite S0; constructor|now apply alist_set_nodup].
  Qed.

  Hypothesis Hin : forall k c, cstates m k = Some c -> In k (cdom m).

  Let m' := fst (set_location m dh h p).

  Theorem set_location_pointwise :
    snd (set_location m dh h p) = 0 /\ ver m' = ver m + 1 /\
    forall k, cstates m' k =
      if Z.eqb k h then Some (mkCState dh (d_ver d) 0 A_ASSOC (Some (ver m + 1)) None p)
      else match cstates m k with
           | Some c => if needs_dis dh c then Some (dis_of (ver m + 1) c) else Some c
           | None => None
           end.
  Proof.
    subst m'. destruct set_location_commit as (t & C0 & -> & V & OV). cbn [fst snd].
    split; [reflexivity|]. split; [exact V|].
    intros k. rewrite (ov_cstates _ _ _ OV), C0. destruct (k =? h); [reflexivity|]. unfold dis_item.
    destruct (cstates m k) as [c|] eqn:Ek; [|now destruct (memz k (cdom m))].
    rewrite (proj2 (memz_In k (cdom m)) (Hin k c Ek)). now destruct (needs_dis dh c).
  Qed.

  (* an associated state is the new one, or a committed one of another descriptor *)
  Lemma set_location_assoc k c : cstates m' k = Some c -> c_assoc c = A_ASSOC ->
    k = h /\ c_dh c = dh \/ cstates m k = Some c /\ c_dh c <> dh.
  Proof.
    destruct set_location_pointwise as (_ & _ & P). intros E Ea. rewrite P in E.
    destruct (Z.eqb_spec k h) as [->|Hne]; [left; injection E as <-; now split|right].
    destruct (cstates m k) as [c0|] eqn:E0; [|discriminate].
    destruct (needs_dis dh c0) eqn:N; injection E as <-; [now apply dis_not_assoc in Ea|].
    split; [reflexivity|]. intros Edh. rewrite (needs_dis_assoc dh c0 Ea), Edh, Z.eqb_refl in N. discriminate.
  Qed.

  Lemma set_location_st_steps : (forall k c, cstates m k = Some c -> c_assoc c = A_ASSOC -> c_unbind c = None) ->
    forall k c', cstates m' k = Some c' -> st_step (ver m + 1) (cstates m k) c'.
  Proof.
    intros Hopen k c' E'. destruct set_location_pointwise as (_ & _ & P). rewrite P in E'.
    destruct (Z.eqb_spec k h) as [->|_]; [injection E' as <-; rewrite Hfresh; now apply st_step_new|].
    destruct (cstates m k) as [c|] eqn:E; [|discriminate].
    destruct (needs_dis dh c); injection E' as <-; [apply st_step_dis_of|apply st_step_same]; exact (Hopen k c E).
  Qed.

  (* after a location change: the new state is the only associated state of the descriptor; every state of
     the descriptor that was associated before is now disassociated with the unbinding version of THIS commit
     (unless it already carried one); the new state is bound to THIS commit; nothing else changed *)
  Theorem set_location_invariants :
    let v := ver m + 1 in
    (forall k c, cstates m' k = Some c -> c_dh c = dh -> c_assoc c = A_ASSOC -> k = h) /\
    (exists c, cstates m' h = Some c /\ c_assoc c = A_ASSOC /\ c_bind c = Some v /\ c_dh c = dh) /\
    (forall k c, cstates m k = Some c -> c_dh c = dh -> c_assoc c = A_ASSOC ->
        exists c', cstates m' k = Some c' /\ c_assoc c' = A_DIS /\
                   (c_unbind c = None -> c_unbind c' = Some v) /\ c_ver c' = c_ver c + 1) /\
    (forall k c, cstates m k = Some c -> c_dh c <> dh -> cstates m' k = Some c).
  Proof.
    cbv zeta. destruct set_location_pointwise as (_ & _ & P). repeat split.
    - intros k c E Edh Ea. destruct (set_location_assoc k c E Ea) as [[-> _]|[_ N]]; [reflexivity|contradiction].
    - exists (mkCState dh (d_ver d) 0 A_ASSOC (Some (ver m + 1)) None p). rewrite P, Z.eqb_refl. repeat split.
    - intros k c E Edh Ea.
      assert (Hne : k <> h) by (intros ->; congruence).
      rewrite P. destruct (Z.eqb_spec k h); [contradiction|].
      rewrite E, (needs_dis_assoc dh c Ea), Edh, Z.eqb_refl.
      exists (dis_of (ver m + 1) c). repeat split. apply dis_of_unbind.
    - intros k c E Ndh.
      assert (Hne : k <> h) by (intros ->; congruence).
      rewrite P. destruct (Z.eqb_spec k h); [contradiction|]. now rewrite E, needs_dis_other.
  Qed.
End SetLocation.

Lemma unused_none m h : (forall k c, cstates m k = Some c -> In k (cdom m)) -> ~ In h (cdom m) -> cstates m h = None.
Proof. intros Hcov Hh. destruct (cstates m h) as [c|] eqn:E; [|reflexivity]. now apply Hcov in E. Qed.

(* with a handle the MDIB has never used, a location change is rejected for want of a context descriptor, or it
   is the commit described by set_location_commit / set_location_pointwise *)
Lemma set_location_cases m dh h p :
  (forall k c, cstates m k = Some c -> In k (cdom m)) -> ~ In h (cdom m) ->
  fst (set_location m dh h p) = m \/ exists d, descrs m dh = Some d /\ d_kind d = K_CTX /\ cstates m h = None.
Proof.
  intros Hcov Hh. destruct (descrs m dh) as [d|] eqn:Hd; [|left; apply set_location_rejected; now left].
  destruct (Z.eq_dec (d_kind d) K_CTX) as [Hk|Hk]; [|left; apply set_location_rejected; right; now exists d].
  right. exists d. repeat split; try assumption. now apply unused_none.
Qed.

(* a SetContextState operation that fails changes nothing; one that finishes raises MdibVersion by one (or
   changed nothing at all) *)
Lemma set_context_state_atomic m fresh ps :
  let r := set_context_state m fresh ps in
  (snd r = 1 -> fst r = m) /\ (snd r = 0 -> ver (fst r) = ver m + 1 \/ fst r = m) /\ (snd r = 0 \/ snd r = 1).
Proof.
  cbv zeta. unfold set_context_state.
  destruct (existsb _ ps); [cbn; repeat split; try reflexivity; try discriminate; now right|].
  destruct (handle_proposals m _ ps) as [st|]; [|cbn; repeat split; try reflexivity; try discriminate; now right].
  destruct (write_entities m empty_tx _ _) as [t|]; [|cbn; repeat split; try reflexivity; try discriminate; now right].
  cbn [fst snd]. repeat split; try discriminate; [|now left]. intros _.
  rewrite commit_states_ver. destruct (t_s t) eqn:E1, (t_c t) eqn:E2; try (now left).
  right. now apply commit_states_empty.
Qed.
