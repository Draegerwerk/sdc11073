(* Proofs about the provider MDIB model: atomicity of transactions, MdibVersion steps, monotone version
   counters and referential consistency under state transactions. *)
From Coq Require Import List ZArith Bool Lia.
From SDC Require Import Mdib.Model.
From SDC Require Export Mdib.Base.
Import ListNotations.
Open Scope Z_scope.

Lemma transaction_not_committed_noop k ab acts m :
  snd (transaction k ab acts m) <> 0 -> fst (transaction k ab acts m) = m.
Proof.
  destruct (transaction_cases k ab acts m) as [[_ E]|(_ & t & _ & -> & _)]; [now intros _|].
  intros N. now contradiction N.
Qed.

Lemma transaction_code_range k ab acts m :
  let c := snd (transaction k ab acts m) in 0 <= c <= 4.
Proof.
  unfold transaction. destruct (body k m empty_tx _) as [t|[| |]]; cbn; try lia.
  destruct ab; cbn; [lia|].
  destruct (Z.eqb k 6); [destruct (subtree_conflict m t || orphan_create m t)|]; cbn; lia.
Qed.

Lemma put_state_ver m h s : ver (put_state m h s) = ver m.
Proof. reflexivity. Qed.
Lemma put_cstate_ver m h c : ver (put_cstate m h c) = ver m.
Proof. reflexivity. Qed.
Lemma set_descr_ver m h d : ver (set_descr m h d) = ver m.
Proof. reflexivity. Qed.

Lemma rm_one_ver m h : ver (rm_one m h) = ver m.
Proof.
  rewrite (rm_one_frame ver) by reflexivity. unfold rm_head. destruct (states (set_descr m h None) h); reflexivity.
Qed.

Lemma fold_rm_one_ver l m : ver (fold_left rm_one l m) = ver m.
Proof. apply (fold_frame ver), rm_one_ver. Qed.

Lemma bump_parent_ver m t p : ver (fst (bump_parent m t p)) = ver m.
Proof. unfold bump_parent. destruct (descrs m p); reflexivity. Qed.

Lemma process_item_ver cr up de mtb e : ver (fst (fst (process_item cr up de mtb e))) = ver (fst (fst mtb)).
Proof.
  destruct mtb as [[m t] bumped]. unfold process_item. cbn [fst].
  destruct (snd e) as [d|]; destruct (descrs m (fst e)) as [o|]; cbn [fst]; try reflexivity.
  - destruct (d_parent d) as [p|]; [|reflexivity].
    destruct (memz p cr || memz p up || memz p bumped); [reflexivity|].
    pose proof (bump_parent_ver (set_descr m (fst e) (Some d)) t p) as B.
    destruct (bump_parent (set_descr m (fst e) (Some d)) t p) as [mb tb]. exact B.
  - destruct (d_parent o) as [p|]; [|cbn [fst]; apply fold_rm_one_ver].
    destruct (memz p de || memz p up || memz p bumped); cbn [fst]; [apply fold_rm_one_ver|].
    pose proof (bump_parent_ver (fold_left rm_one (subtree m (fst e)) m) t p) as B.
    destruct (bump_parent (fold_left rm_one (subtree m (fst e)) m) t p) as [mb tb]. cbn [fst] in *.
    rewrite B. apply fold_rm_one_ver.
Qed.

(* descriptor commit: the version is incremented exactly once *)
Lemma commit_descr_ver m t :
  ver (commit_descr m t) = match t_d t with [] => ver m | _ => ver m + 1 end.
Proof.
  unfold commit_descr. destruct (t_d t) as [|e r] eqn:E; [reflexivity|].
  match goal with |- context [fold_left ?f ?l ?a] => destruct (fold_left f l a) as [[m1 t1] b1] eqn:F end.
  rewrite handle_state_updates_ver.
  change m1 with (fst (fst (m1, t1, b1))). rewrite <- F. now rewrite (fold_frame (fun mtb => ver (fst (fst mtb)))) by apply process_item_ver.
Qed.

Theorem version_step k ab acts m :
  let m' := fst (transaction k ab acts m) in
  let c := snd (transaction k ab acts m) in
  (c <> 0 -> m' = m) /\ (c = 0 -> ver m' = ver m + 1 \/ m' = m).
Proof.
  cbv zeta. split; [apply transaction_not_committed_noop|]. intros C0.
  destruct (transaction_cases k ab acts m) as [[N _]|(_ & t & _ & -> & _)]; [contradiction|]. cbn [fst].
  destruct (k =? 6).
  - rewrite commit_descr_ver. destruct (t_d t) eqn:E; [right; now apply commit_descr_empty|now left].
  - destruct (commit_states_eq m t) as [(_ & _ & ->)| ->]; [now right|left]. apply handle_state_updates_ver.
Qed.

Definition state_only (acts : list action) : Prop := forall a, In a acts -> exists h p, a = AState h p.

(* what a state transaction's body builds: every item is the MDIB's state with StateVersion + 1 *)
Record stx_ok (k : Z) (m : mdib) (t : tx) : Prop := {
  sx_d : t_d t = [];
  sx_c : t_c t = [];
  sx_nodup : NoDup (map fst (t_s t));
  sx_items : forall h s, In (h, s) (t_s t) ->
      exists o, states m h = Some o /\ s_ver s = s_ver o + 1 /\ s_dver s = s_dver o /\ kind_of m h = Some k
}.

Lemma st_get_inv k m t h p t' : st_get k m t h p = Ok t' ->
  alist_has (t_s t) h = false /\ exists o, states m h = Some o /\ kind_of m h = Some k /\
  t' = mkTx (t_d t) (alist_set (t_s t) h (mkState (s_dver o) (s_ver o + 1) p)) (t_c t).
Proof.
  unfold st_get. destruct (alist_has (t_s t) h); [discriminate|].
  destruct (states m h) as [o|]; [|discriminate]. destruct (kind_of m h) as [k'|]; [|discriminate].
  destruct (Z.eqb_spec k k') as [<-|]; [|discriminate]. intros [= <-]. split; [reflexivity|]. now exists o.
Qed.

Lemma st_get_ok k m t h p t' : stx_ok k m t -> st_get k m t h p = Ok t' -> stx_ok k m t'.
Proof.
  intros [Hd Hc Hn Hi] G. destruct (st_get_inv _ _ _ _ _ _ G) as (_ & o & S & K & ->).
  constructor; cbn [t_d t_s t_c]; try assumption; [now apply alist_set_nodup|].
  intros h' s' Hin. destruct (alist_set_in _ _ _ _ _ Hn Hin) as [[-> ->]|[_ Hold]]; [|now apply Hi].
  exists o. cbn. repeat split; assumption.
Qed.

Lemma empty_stx_ok k m : stx_ok k m empty_tx.
Proof. constructor; cbn; try reflexivity; [constructor|contradiction]. Qed.

Lemma body_state_ok k m : 0 <= k < 5 -> forall acts t t',
  state_only acts -> stx_ok k m t -> body k m t acts = Ok t' -> stx_ok k m t'.
Proof.
  intros Hk acts t t' Ho. apply body_inv. intros a t0 t1 Ha Hok. destruct (Ho a Ha) as (h & p & ->).
  cbn [apply_action]. replace (k <? 5) with true by lia. now apply st_get_ok.
Qed.

(* effective version: the version an object has, or the one remembered for its handle *)
Definition ev_s (m : mdib) (h : H) : Z :=
  match states m h with Some s => s_ver s | None => match sv_s m h with Some v => v | None => -1 end end.

(* referential consistency of the single-state table (the third sentence of C02, for states) *)
Definition states_consistent (m : mdib) : Prop :=
  forall h s, states m h = Some s -> exists d, descrs m h = Some d /\ s_dver s = d_ver d.

(* items exist only for handles named by an action *)
Lemma body_state_named k m : 0 <= k < 5 -> forall acts t0 t1,
  state_only acts -> body k m t0 acts = Ok t1 ->
  forall h0, alist_has (t_s t1) h0 = true ->
  alist_has (t_s t0) h0 = true \/ exists p, In (AState h0 p) acts.
Proof.
  intros Hk acts t0 t1 Ho B h0.
  apply (body_inv k m (fun t => alist_has (t_s t) h0 = true -> alist_has (t_s t0) h0 = true \/ exists p, In (AState h0 p) acts)
                  acts) with (t := t0); [|tauto|exact B].
  intros a t t' Ha IH G. destruct (Ho a Ha) as (h & p & ->). cbn [apply_action] in G.
  replace (k <? 5) with true in G by lia. destruct (st_get_inv _ _ _ _ _ _ G) as (_ & o & _ & _ & ->).
  unfold alist_has. cbn [t_s]. rewrite alist_get_set. destruct (Z.eqb_spec h0 h) as [->|]; [|exact IH].
  intros _. right. now exists p.
Qed.

Lemma commit_states_pointwise k m t : stx_ok k m t ->
  (forall h, states (commit_states m t) h =
             match alist_get (t_s t) h with Some s => Some s | None => states m h end) /\
  descrs (commit_states m t) = descrs m /\ cstates (commit_states m t) = cstates m /\
  (forall h, sv_s (commit_states m t) h =
             match alist_get (t_s t) h, states m h with Some _, Some o => Some (s_ver o) | _, _ => sv_s m h end).
Proof.
  intros [Hd Hc Hn Hi]. destruct (commit_states_spec m t Hn) as [D _ _ S V _ _ _ _ C _]; [rewrite Hc; constructor|].
  repeat split; try assumption. apply (C Hc).
Qed.

Section StateTx.
  Variables (k : Z) (m : mdib) (acts : list action).
  Hypothesis Hk : 0 <= k < 5.
  Hypothesis Hacts : state_only acts.

  Let m' := fst (transaction k None acts m).

  (* a state transaction either leaves the MDIB untouched or commits a well-formed item list *)
  Lemma state_tx_cases :
    m' = m \/
    exists t, stx_ok k m t /\ m' = commit_states m t /\
              (forall h, alist_has (t_s t) h = true -> exists p, In (AState h p) acts).
  Proof.
    subst m'. destruct (transaction_cases k None acts m) as [[_ E]|(_ & t & B & -> & _)]; [now left|right].
    exists t. replace (k =? 6) with false by lia. split; [|split; [reflexivity|]].
    - eapply body_state_ok; try eassumption. apply empty_stx_ok.
    - intros h Hh. destruct (body_state_named k m Hk acts empty_tx t Hacts B h Hh) as [H0|H1]; [discriminate|exact H1].
  Qed.

  Theorem state_tx_frame :
    descrs m' = descrs m /\ cstates m' = cstates m /\
    (forall h, (forall p, ~ In (AState h p) acts) -> states m' h = states m h).
  Proof.
    destruct state_tx_cases as [->|(t & Hok & -> & Hnamed)]; [repeat split|].
    destruct (commit_states_pointwise k m t Hok) as (S & D & C & _). repeat split; try assumption.
    intros h Hn. rewrite S. destruct (alist_get (t_s t) h) as [s|] eqn:G; [|reflexivity].
    exfalso. destruct (Hnamed h) as (p & Hp); [unfold alist_has; now rewrite G|]. exact (Hn p Hp).
  Qed.

  Theorem state_tx_versions :
    (forall h, ev_s m h <= ev_s m' h) /\
    (forall h s s', states m h = Some s -> states m' h = Some s' -> s' <> s -> s_ver s' = s_ver s + 1).
  Proof.
    destruct state_tx_cases as [->|(t & Hok & -> & _)].
    - split; [intros; lia|]. intros h s s' E1 E2 Hne. rewrite E1 in E2. injection E2 as <-. contradiction.
    - destruct (commit_states_pointwise k m t Hok) as (S & _ & _ & V). split.
      + intros h. unfold ev_s. rewrite S, V.
        destruct (alist_get (t_s t) h) as [s|] eqn:G.
        * apply alist_get_some_in in G. destruct (sx_items _ _ _ Hok _ _ G) as (o & -> & E & _). lia.
        * destruct (states m h); lia.
      + intros h s s' E1 E2 Hne. rewrite S in E2.
        destruct (alist_get (t_s t) h) as [s1|] eqn:G.
        * injection E2 as <-. apply alist_get_some_in in G.
          destruct (sx_items _ _ _ Hok _ _ G) as (o & Eo & E & _). rewrite E1 in Eo. injection Eo as <-. exact E.
        * rewrite E1 in E2. injection E2 as <-. contradiction.
  Qed.

  Theorem state_tx_consistent : states_consistent m -> states_consistent m'.
  Proof.
    intros Hc. destruct state_tx_cases as [->|(t & Hok & -> & _)]; [exact Hc|].
    destruct (commit_states_pointwise k m t Hok) as (S & D & _ & _).
    intros h s. rewrite S, D. destruct (alist_get (t_s t) h) as [s1|] eqn:G; [|apply Hc].
    intros [= <-]. apply alist_get_some_in in G.
    destruct (sx_items _ _ _ Hok _ _ G) as (o & Eo & _ & Ed & _).
    destruct (Hc h o Eo) as (d & Hd & Hv). exists d. split; [assumption|congruence].
  Qed.
End StateTx.

Definition txn := (Z * option nat * list action)%type.
Definition exec1 (m : mdib) (x : txn) : mdib :=
  let '(k, ab, acts) := x in fst (transaction k ab acts m).
Definition exec (m : mdib) (hist : list txn) : mdib := fold_left exec1 hist m.

(* a history of state transactions (any of the five kinds, possibly aborted, possibly with rejected calls) *)
Definition state_txn (x : txn) : Prop :=
  let '(k, ab, acts) := x in 0 <= k < 5 /\ state_only acts.

Lemma abort_never_commits k n acts m :
  snd (transaction k (Some n) acts m) <> 0 /\ fst (transaction k (Some n) acts m) = m.
Proof. destruct (transaction_cases k (Some n) acts m) as [R|([=] & _)]. exact R. Qed.

Lemma exec1_ver m x : ver m <= ver (exec1 m x) <= ver m + 1.
Proof.
  destruct x as [[k ab] acts]. unfold exec1. destruct (version_step k ab acts m) as [N Y]. cbv zeta in *.
  destruct (Z.eq_dec (snd (transaction k ab acts m)) 0) as [E|E]; [destruct (Y E) as [-> | ->]|rewrite (N E)]; lia.
Qed.

Theorem any_history_version hist : forall m,
  ver m <= ver (exec m hist) <= ver m + Z.of_nat (length hist).
Proof.
  induction hist as [|x r IH]; intros m; cbn [exec fold_left length]; [lia|].
  specialize (IH (exec1 m x)). unfold exec in *. pose proof (exec1_ver m x). rewrite Nat2Z.inj_succ. lia.
Qed.

Lemma exec1_state_txn m x : state_txn x ->
  (forall h, ev_s m h <= ev_s (exec1 m x) h) /\
  (states_consistent m -> states_consistent (exec1 m x)) /\
  descrs (exec1 m x) = descrs m /\ cstates (exec1 m x) = cstates m.
Proof.
  destruct x as [[k [n|]] acts]; intros [Hk Ho]; unfold exec1.
  - rewrite (proj2 (abort_never_commits k n acts m)). repeat split; auto; lia.
  - destruct (state_tx_frame k m acts Hk Ho) as (D & C & _). repeat split; try assumption.
    + apply (state_tx_versions k m acts Hk Ho).
    + now apply state_tx_consistent.
Qed.

Theorem state_history hist : forall m, Forall state_txn hist ->
  (forall h, ev_s m h <= ev_s (exec m hist) h) /\
  (states_consistent m -> states_consistent (exec m hist)) /\
  descrs (exec m hist) = descrs m /\ cstates (exec m hist) = cstates m /\
  ver m <= ver (exec m hist) <= ver m + Z.of_nat (length hist).
Proof.
  induction hist as [|x r IH]; intros m Hf; cbn [exec fold_left].
  - repeat split; auto; cbn; lia.
  - inversion Hf as [|? ? Hx Hr]; subst.
    destruct (exec1_state_txn m x Hx) as (V & C & D & CS).
    destruct (IH (exec1 m x) Hr) as (V2 & C2 & D2 & CS2 & _). unfold exec in *.
    split; [|split; [auto|split; [congruence|split; [congruence|apply (any_history_version (x :: r))]]]].
    intros h. specialize (V h). specialize (V2 h). lia.
Qed.

Lemma rejected_call_noop k m acts1 a acts2 t e :
  body k m empty_tx acts1 = Ok t -> apply_action k m t a = Rej e ->
  fst (transaction k None (acts1 ++ a :: acts2) m) = m /\ snd (transaction k None (acts1 ++ a :: acts2) m) <> 0.
Proof.
  intros B R. unfold transaction. rewrite body_app, B. cbn [body]. rewrite R.
  destruct e; cbn; split; (reflexivity || discriminate).
Qed.

Theorem state_report_exact k m t : stx_ok k m t ->
  let m' := commit_states m t in
  NoDup (map fst (t_s t)) /\
  (forall h s, In (h, s) (t_s t) -> states m' h = Some s /\ states m h <> Some s) /\
  (forall h, states m' h <> states m h -> exists s, In (h, s) (t_s t)) /\
  (t_s t <> [] -> ver m' = ver m + 1).
Proof.
  intros Hok. cbv zeta. destruct (commit_states_pointwise k m t Hok) as (S & _ & _ & _).
  split; [apply (sx_nodup _ _ _ Hok)|]. split; [|split].
  - intros h s Hi. rewrite S, (alist_get_in _ _ _ (sx_nodup _ _ _ Hok) Hi). split; [reflexivity|].
    destruct (sx_items _ _ _ Hok h s Hi) as (o & -> & E & _). intros [= ->]. lia.
  - intros h Hne. rewrite S in Hne. destruct (alist_get (t_s t) h) as [s|] eqn:G; [|contradiction].
    exists s. now apply alist_get_some_in.
  - intros Hne. rewrite commit_states_ver. destruct (t_s t); [contradiction|reflexivity].
Qed.
