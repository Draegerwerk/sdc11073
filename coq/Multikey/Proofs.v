(* Proofs about the MultiKeyLookup model: the table invariant is preserved by every operation, a
   lookup agrees with a scan of the stored objects (as multisets), a rejected insert leaves the object
   set and the reference lists as they were and every index with the same multiset of objects. *)
From Coq Require Import List ZArith Bool Lia.
From SDC Require Import Common.ListFacts Multikey.Model.
Import ListNotations.
Open Scope Z_scope.

Notation cnt := (count_occ Z.eq_dec).

Definition ref_eqb (a b : ref) : bool := Nat.eqb (fst a) (fst b) && okey_eqb (snd a) (snd b).
Definition rcount (i : nat) (k : okey) (l : list ref) : nat := length (filter (ref_eqb (i, k)) l).

Lemma okey_eqb_eq a b : okey_eqb a b = true <-> a = b.
Proof.
  destruct a as [x|], b as [y|]; simpl; split; intros H; try discriminate; try reflexivity.
  - apply Z.eqb_eq in H. now subst.
  - injection H as ->. apply Z.eqb_refl.
Qed.

Lemma okey_eqb_sym a b : okey_eqb a b = okey_eqb b a.
Proof. destruct a, b; cbn [okey_eqb]; [apply Z.eqb_sym|reflexivity..]. Qed.

Lemma rcount_nil i k : rcount i k [] = O.
Proof. reflexivity. Qed.

Lemma rcount_app i k l1 l2 : rcount i k (l1 ++ l2) = (rcount i k l1 + rcount i k l2)%nat.
Proof. unfold rcount. now rewrite filter_app, app_length. Qed.

Lemma rcount_cons i k j k' l :
  rcount i k ((j, k') :: l) = ((if Nat.eqb i j && okey_eqb k k' then 1 else 0) + rcount i k l)%nat.
Proof. unfold rcount. cbn [filter]. unfold ref_eqb at 1. cbn [fst snd]. destruct (Nat.eqb i j && okey_eqb k k'); reflexivity. Qed.

Lemma rcount_map_pair i j k ks : rcount i k (map (pair j) ks) = if Nat.eqb i j then okey_count k ks else O.
Proof.
  unfold okey_count. induction ks as [|x r IH]; [now destruct (Nat.eqb i j)|].
  cbn [map filter]. rewrite rcount_cons, IH.
  destruct (Nat.eqb i j); cbn [andb]; [|reflexivity]. destruct (okey_eqb k x); reflexivity.
Qed.

Lemma cnt_single o o' : cnt [o] o' = if Z.eqb o o' then 1%nat else 0%nat.
Proof. cbn. destruct (Z.eq_dec o o'), (Z.eqb_spec o o'); congruence. Qed.

Lemma cnt_remove_first o l o' :
  cnt (remove_first o l) o' = if Z.eqb o o' then pred (cnt l o') else cnt l o'.
Proof.
  induction l as [|x r IH]; cbn [remove_first count_occ]; [destruct (Z.eqb o o'); reflexivity|].
  destruct (Z.eqb_spec o x) as [->|Hox].
  - destruct (Z.eq_dec x o') as [->|N]; [rewrite Z.eqb_refl; reflexivity|].
    destruct (Z.eqb_spec x o'); [contradiction|reflexivity].
  - cbn [count_occ]. rewrite IH. destruct (Z.eq_dec x o') as [->|N]; [|reflexivity].
    destruct (Z.eqb_spec o o'); [contradiction|reflexivity].
Qed.

(* n if the counted object o' is the object o that was inserted or removed, else 0 *)
Definition wt (o o' : oid) (n : nat) : nat := if Z.eqb o o' then n else O.

Lemma wt_0 o o' : wt o o' 0 = O.
Proof. unfold wt. now destruct (Z.eqb o o'). Qed.

Lemma wt_add o o' a b : wt o o' (a + b) = (wt o o' a + wt o o' b)%nat.
Proof. unfold wt. now destruct (Z.eqb o o'). Qed.

Lemma cnt_ins ix k o k' o' :
  cnt (ins ix k o k') o' = (cnt (ix k') o' + wt o o' (if okey_eqb k k' then 1 else 0))%nat.
Proof.
  unfold ins. destruct (okey_eqb k k'); [|now rewrite wt_0].
  rewrite count_occ_app, cnt_single. reflexivity.
Qed.

Lemma cnt_rmk ix k o k' o' :
  cnt (rmk ix k o k') o' = (cnt (ix k') o' - wt o o' (if okey_eqb k k' then 1 else 0))%nat.
Proof.
  unfold rmk. destruct (okey_eqb k k'); [|now rewrite wt_0, Nat.sub_0_r].
  rewrite cnt_remove_first. unfold wt. destruct (Z.eqb o o'); [now rewrite Nat.sub_1_r|now rewrite Nat.sub_0_r].
Qed.

Lemma upd_same ixs i ix : upd ixs i ix i = ix.
Proof. unfold upd. now rewrite Nat.eqb_refl. Qed.
Lemma upd_other ixs i ix j : i <> j -> upd ixs i ix j = ixs j.
Proof. unfold upd. intros H. destruct (Nat.eqb_spec i j); [contradiction|reflexivity]. Qed.

Lemma cnt_ins_many ks : forall ixs i o j k o',
  cnt (ins_many ixs i ks o j k) o' = (cnt (ixs j k) o' + wt o o' (rcount j k (map (pair i) ks)))%nat.
Proof.
  induction ks as [|x r IH]; intros ixs i o j k o'; cbn [ins_many map]; [now rewrite rcount_nil, wt_0|].
  rewrite IH, rcount_cons, wt_add, Nat.add_assoc. f_equal.
  destruct (Nat.eqb_spec j i) as [->|Hji]; cbn [andb].
  - now rewrite upd_same, cnt_ins, (okey_eqb_sym k x).
  - rewrite upd_other by congruence. now rewrite wt_0.
Qed.

Lemma cnt_rm_refs rs : forall ixs o j k o',
  cnt (rm_refs ixs rs o j k) o' = (cnt (ixs j k) o' - wt o o' (rcount j k rs))%nat.
Proof.
  induction rs as [|[i x] r IH]; intros ixs o j k o'; cbn [rm_refs]; [now rewrite rcount_nil, wt_0, Nat.sub_0_r|].
  rewrite IH, rcount_cons, wt_add, Nat.sub_add_distr. f_equal.
  destruct (Nat.eqb_spec j i) as [->|Hji]; cbn [andb].
  - now rewrite upd_same, cnt_rmk, (okey_eqb_sym k x).
  - rewrite upd_other by congruence. now rewrite wt_0, Nat.sub_0_r.
Qed.

Fixpoint all_refs (kinds : list ikind) (i : nat) (av : nat -> kval) : list ref :=
  match kinds with
  | [] => []
  | kd :: r => map (pair i) (spec_keys kd (av i)) ++ all_refs r (S i) av
  end.

(* unless it rejects, keys_of yields the keys a scan would find, whatever is present *)
Lemma keys_of_spec kd v p :
  match keys_of kd v p with
  | MkKeys ks => spec_keys kd v = ks
  | MkSkip => spec_keys kd v = []
  | MkReject => True
  end.
Proof.
  unfold spec_keys. destruct kd as [[]|[]|[]], v as [|k|l|]; cbn; try reflexivity; destruct (p _); reflexivity.
Qed.

(* d: the references this call of _mk_indices added for o.  Every index entry gains rcount j k d copies of o
   and nothing else; unless the call rejects, d is what a scan of o's attributes yields (all_refs). *)
Lemma mk_loop_spec kinds : forall i o av ixs acc ixs' acc' rej,
  mk_loop kinds i o av ixs acc = (ixs', acc', rej) ->
  exists d, acc' = acc ++ d /\
    (forall j k o', cnt (ixs' j k) o' = (cnt (ixs j k) o' + wt o o' (rcount j k d))%nat) /\
    (rej = false -> d = all_refs kinds i av).
Proof.
  induction kinds as [|kd r IH]; intros i o av ixs acc ixs' acc' rej H; cbn [mk_loop] in H.
  - injection H as <- <- <-. exists []. rewrite app_nil_r. repeat split.
    intros. now rewrite rcount_nil, wt_0.
  - pose proof (keys_of_spec kd (av i) (fun k => negb (is_nil (ixs i k)))) as S.
    destruct (keys_of kd (av i) _) as [ks| |].
    + apply IH in H as (d & -> & Hc & Hr).
      exists (map (pair i) ks ++ d). rewrite app_assoc. repeat split.
      * intros j k o'. now rewrite Hc, cnt_ins_many, rcount_app, wt_add, Nat.add_assoc.
      * intros E. cbn [all_refs]. now rewrite S, (Hr E).
    + apply IH in H as (d & -> & Hc & Hr). exists d. repeat split; auto.
      intros E. cbn [all_refs]. now rewrite S, (Hr E).
    + injection H as <- <- <-. exists []. rewrite app_nil_r. repeat split; try discriminate.
      intros. now rewrite rcount_nil, wt_0.
Qed.

Lemma mem_In o l : mem o l = true <-> In o l.
Proof. apply existsb_Zeqb_In. Qed.

Lemma remove_first_app o l r : ~ In o l -> remove_first o (l ++ r) = l ++ remove_first o r.
Proof.
  induction l as [|x l IH]; intros H; [reflexivity|]. cbn [app remove_first].
  destruct (Z.eqb_spec o x) as [->|Hne]; [exfalso; apply H; now left|].
  f_equal. apply IH. intros Hi. apply H. now right.
Qed.

Lemma remove_first_notin o l : ~ In o l -> remove_first o l = l.
Proof. intros H. rewrite <- (app_nil_r l) at 1. rewrite remove_first_app by assumption. apply app_nil_r. Qed.

Lemma remove_first_app_last o l : ~ In o l -> remove_first o (l ++ [o]) = l.
Proof. intros H. rewrite remove_first_app by assumption. cbn. now rewrite Z.eqb_refl, app_nil_r. Qed.

(* membership and duplicate-freeness are read off the multiplicities *)
Lemma In_remove_first o l x : NoDup l -> (In x (remove_first o l) <-> In x l /\ x <> o).
Proof.
  rewrite (NoDup_count_occ Z.eq_dec), !(count_occ_In Z.eq_dec), cnt_remove_first. intros Hnd.
  specialize (Hnd x). destruct (Z.eqb_spec o x); lia.
Qed.

Lemma NoDup_remove_first o l : NoDup l -> NoDup (remove_first o l).
Proof.
  rewrite !(NoDup_count_occ Z.eq_dec). intros Hnd x. specialize (Hnd x). rewrite cnt_remove_first.
  destruct (Z.eqb o x); lia.
Qed.

Lemma oupd_same {A} (f : oid -> A) o v : oupd f o v o = v.
Proof. unfold oupd. now rewrite Z.eqb_refl. Qed.
Lemma oupd_other {A} (f : oid -> A) o v o' : o <> o' -> oupd f o v o' = f o'.
Proof. unfold oupd. intros H. destruct (Z.eqb_spec o o'); [contradiction|reflexivity]. Qed.
Lemma oupd_id {A} (f : oid -> A) o v o' : f o = v -> oupd f o v o' = f o'.
Proof. unfold oupd. intros H. destruct (Z.eqb_spec o o') as [<-|_]; [now symmetry|reflexivity]. Qed.

Section Inv.
  Variable kinds : list ikind.

  Record Inv (t : table) : Prop := {
    inv_nodup : NoDup (objs t);
    inv_refs_dom : forall o, refs t o = None <-> ~ In o (objs t);
    inv_refs_val : forall o l, refs t o = Some l -> l = all_refs kinds 0 (iattrs t o);
    inv_idx : forall i k o,
        cnt (idxs t i k) o = match refs t o with Some l => rcount i k l | None => O end
  }.

  Lemma inv_refs_eq t o :
    Inv t -> refs t o = if mem o (objs t) then Some (all_refs kinds 0 (iattrs t o)) else None.
  Proof.
    intros I. destruct (mem o (objs t)) eqn:M.
    - apply mem_In in M. destruct (refs t o) as [l|] eqn:R; [now rewrite (inv_refs_val _ I o l R)|].
      now apply (inv_refs_dom _ I) in R.
    - apply (inv_refs_dom _ I). rewrite <- mem_In. congruence.
  Qed.

  (* [t] with [o] taken out of _objects.  _mk_indices is entered with the object in _objects but not
     indexed: the invariant holds of the table without it. *)
  Definition drop (t : table) (o : oid) : table :=
    mkTable (remove_first o (objs t)) (idxs t) (refs t) (attrs t) (iattrs t).

  Lemma drop_refs_none t o : NoDup (objs t) -> Inv (drop t o) -> refs t o = None.
  Proof.
    intros Hnd I. apply (inv_refs_dom _ I). cbn [drop objs]. rewrite In_remove_first by assumption. tauto.
  Qed.

  Lemma mk_indices_inv t o :
    NoDup (objs t) -> In o (objs t) -> Inv (drop t o) -> Inv (fst (mk_indices kinds t o)).
  Proof.
    intros Hnd Hin I. pose proof (drop_refs_none t o Hnd I) as Hnone.
    destruct I as [Ind Idom Ival Iidx]. cbn [drop objs refs idxs iattrs] in *.
    unfold mk_indices.
    destruct (mk_loop kinds 0 o (attrs t o) (idxs t) []) as [[ixs acc] rej] eqn:L.
    apply mk_loop_spec in L as (d & Hacc & Hc & Hr). cbn [app] in Hacc. subst acc.
    destruct rej; cbn [fst].
    - (* rejected and rolled back: the table without o *)
      constructor; cbn [objs refs idxs iattrs].
      + assumption.
      + intros o'. rewrite oupd_id by assumption. apply Idom.
      + intros o' l. rewrite oupd_id by assumption. apply Ival.
      + intros i k o'. rewrite cnt_rm_refs, Hc, oupd_id, Iidx by assumption. apply Nat.add_sub.
    - specialize (Hr eq_refl). subst d.
      constructor; cbn [objs refs idxs iattrs].
      + assumption.
      + intros o'. destruct (Z.eq_dec o' o) as [->|Hne].
        * rewrite oupd_same. split; [discriminate|contradiction].
        * rewrite oupd_other by congruence. rewrite Idom, In_remove_first by assumption. tauto.
      + intros o' l. destruct (Z.eq_dec o o') as [<-|Hne].
        * rewrite !oupd_same. now intros [= <-].
        * rewrite !oupd_other by assumption. apply Ival.
      + intros i k o'. rewrite Hc, Iidx. unfold wt.
        destruct (Z.eqb_spec o o') as [<-|Hne].
        * now rewrite oupd_same, Hnone.
        * rewrite oupd_other by assumption. apply Nat.add_0_r.
  Qed.

  Lemma add_inv t o : Inv t -> Inv (fst (add kinds t o)).
  Proof.
    intros I. unfold add. destruct (mem o (objs t)) eqn:M; [exact I|].
    assert (Hni : ~ In o (objs t)) by (rewrite <- mem_In; congruence).
    apply mk_indices_inv; cbn [objs].
    - apply NoDup_snoc; [apply (inv_nodup _ I)|assumption].
    - apply in_or_app. right. now left.
    - unfold drop. cbn [objs idxs refs attrs iattrs]. rewrite remove_first_app_last by assumption. now destruct t.
  Qed.

  (* what remove and update start with: o's references leave the indices *)
  Lemma rm_indices_objs t o : objs (rm_indices t o) = objs t.
  Proof. unfold rm_indices. now destruct (refs t o). Qed.

  Lemma rm_indices_drop t o : Inv t -> In o (objs t) -> Inv (drop (rm_indices t o) o).
  Proof.
    intros I Hi. pose proof (inv_nodup _ I) as Hnd. unfold rm_indices. destruct (refs t o) as [rs|] eqn:R.
    - constructor; cbn [drop objs refs idxs iattrs].
      + now apply NoDup_remove_first.
      + intros o'. rewrite In_remove_first by assumption. destruct (Z.eq_dec o' o) as [->|Hne].
        * rewrite oupd_same. tauto.
        * rewrite oupd_other by congruence. rewrite (inv_refs_dom _ I). tauto.
      + intros o' l. destruct (Z.eq_dec o o') as [<-|Hne].
        * rewrite oupd_same. discriminate.
        * rewrite oupd_other by assumption. apply (inv_refs_val _ I).
      + intros i k o'. rewrite cnt_rm_refs, (inv_idx _ I). unfold wt.
        destruct (Z.eqb_spec o o') as [<-|Hne].
        * rewrite oupd_same, R. apply Nat.sub_diag.
        * rewrite oupd_other by assumption. apply Nat.sub_0_r.
    - apply (inv_refs_dom _ I) in R. contradiction.
  Qed.

  Lemma update_inv t o : Inv t -> Inv (fst (update kinds t o)).
  Proof.
    intros I. unfold update. destruct (mem o (objs t)) eqn:M; [|exact I]. apply mem_In in M.
    apply mk_indices_inv; [rewrite rm_indices_objs; apply (inv_nodup _ I)|now rewrite rm_indices_objs|].
    now apply rm_indices_drop.
  Qed.

  Lemma remove_inv t o : Inv t -> Inv (fst (remove t o)).
  Proof.
    intros I. unfold remove. rewrite (inv_refs_eq t o I). destruct (mem o (objs t)) eqn:M; [|exact I].
    apply (rm_indices_drop t o I). now apply mem_In.
  Qed.

  Lemma clear_inv t : Inv (clear t).
  Proof.
    constructor; cbn [clear objs refs idxs iattrs]; try constructor; try tauto; try discriminate;
      try reflexivity.
  Qed.

  Lemma empty_inv : Inv empty.
  Proof. exact (clear_inv empty). Qed.

  (* the bulk entry points: loops over the single-object operations *)
  Lemma add_many_inv os : forall t, Inv t -> Inv (fst (add_many kinds t os)).
  Proof.
    induction os as [|o r IH]; intros t I; cbn [add_many]; [exact I|].
    pose proof (add_inv t o I) as I1. destruct (add kinds t o) as [t1 x]. cbn [fst] in I1.
    destruct x; [now apply IH|exact I1|exact I1].
  Qed.

  Lemma remove_many_inv os : forall t, Inv t -> Inv (fst (remove_many t os)).
  Proof.
    induction os as [|o r IH]; intros t I; cbn [remove_many]; [exact I|].
    apply IH. now apply remove_inv.
  Qed.

  Lemma update_many_inv os : forall t, Inv t -> Inv (fst (update_many kinds t os)).
  Proof.
    induction os as [|o r IH]; intros t I; cbn [update_many]; [exact I|].
    pose proof (update_inv t o I) as I1. destruct (update kinds t o) as [t1 x]. cbn [fst] in I1.
    destruct x; [now apply IH|exact I1|exact I1].
  Qed.

  Lemma step_inv t p : Inv t -> Inv (fst (step kinds t p)).
  Proof.
    intros I. destruct p as [o|o|o| |o i v|os|os|os]; cbn [step].
    - now apply add_inv.
    - now apply remove_inv.
    - now apply update_inv.
    - apply clear_inv.
    - cbn [fst]. destruct I as [I1 I2 I3 I4]. constructor; cbn [objs refs idxs iattrs]; assumption.
    - now apply add_many_inv.
    - now apply remove_many_inv.
    - now apply update_many_inv.
  Qed.

  Lemma run_fst t p r : fst (run kinds t (p :: r)) = fst (run kinds (fst (step kinds t p)) r).
  Proof.
    cbn [run]. destruct (step kinds t p) as [t1 x]. cbn [fst].
    destruct (run kinds t1 r) as [t2 xs]. reflexivity.
  Qed.

  Theorem run_inv ops : forall t, Inv t -> Inv (fst (run kinds t ops)).
  Proof.
    induction ops as [|p r IH]; intros t I; [exact I|].
    rewrite run_fst. apply IH. now apply step_inv.
  Qed.

  Lemma rcount_all_refs_lt ks : forall i0 av i k,
    (i < i0)%nat -> rcount i k (all_refs ks i0 av) = O.
  Proof.
    induction ks as [|kd r IH]; intros i0 av i k H; cbn [all_refs]; [reflexivity|].
    rewrite rcount_app, rcount_map_pair, IH by lia. destruct (Nat.eqb_spec i i0); [lia|reflexivity].
  Qed.

  Lemma rcount_all_refs ks : forall i0 av i k,
    (i0 <= i < i0 + length ks)%nat ->
    rcount i k (all_refs ks i0 av) = okey_count k (spec_keys (nth (i - i0) ks (Plain true)) (av i)).
  Proof.
    induction ks as [|kd r IH]; intros i0 av i k H; cbn [all_refs length] in *; [lia|].
    rewrite rcount_app, rcount_map_pair. destruct (Nat.eqb_spec i i0) as [->|Hne].
    - rewrite rcount_all_refs_lt by lia. rewrite Nat.sub_diag. cbn [nth]. lia.
    - rewrite IH by lia.
      replace (i - i0)%nat with (S (i - S i0)) by lia. reflexivity.
  Qed.

  (* Every lookup returns, for every object, exactly the multiplicity a scan of the stored objects
     (with the attribute values of the last re-index) yields. *)
  Theorem lookup_is_scan t i k o :
    Inv t -> (i < length kinds)%nat ->
    cnt (lookup t i k) o = scan_mult kinds t (iattrs t) i k o.
  Proof.
    intros I Hi. unfold lookup, scan_mult. rewrite (inv_idx _ I), (inv_refs_eq t o I).
    destruct (mem o (objs t)); [|reflexivity]. rewrite rcount_all_refs by lia. now rewrite Nat.sub_0_r.
  Qed.

  Definition reindexed (t : table) : Prop := forall o i, In o (objs t) -> iattrs t o i = attrs t o i.

  Corollary lookup_is_scan_current t i k o :
    Inv t -> reindexed t -> (i < length kinds)%nat ->
    cnt (lookup t i k) o = scan_mult kinds t (attrs t) i k o.
  Proof.
    intros I Hr Hi. rewrite (lookup_is_scan t i k o I Hi). unfold scan_mult.
    destruct (mem o (objs t)) eqn:M; [|reflexivity]. apply mem_In in M. now rewrite Hr.
  Qed.

  (* indices are compared by multiplicity, like inv_idx: the insert appends to an entry (ins) and the roll-back removes
     the first occurrence of the object (rm_refs), which need not restore the order if the object was in the entry *)
  Definition same_table (a b : table) : Prop :=
    objs a = objs b /\ (forall o, refs a o = refs b o) /\
    (forall i k o, cnt (idxs a i k) o = cnt (idxs b i k) o) /\
    (forall o i, attrs a o i = attrs b o i) /\ (forall o i, iattrs a o i = iattrs b o i).

  (* a rejected _mk_indices leaves what it was given, less the object *)
  Lemma mk_indices_rejected t o t' :
    refs t o = None -> mk_indices kinds t o = (t', RRejected) -> same_table t' (drop t o).
  Proof.
    intros Hnone. unfold mk_indices.
    destruct (mk_loop kinds 0 o (attrs t o) (idxs t) []) as [[ixs acc] rej] eqn:L.
    apply mk_loop_spec in L as (d & Hacc & Hc & _). cbn [app] in Hacc. subst acc.
    destruct rej; [|discriminate]. intros [= <-].
    repeat split; cbn [drop objs refs idxs attrs iattrs].
    - intros o'. now apply oupd_id.
    - intros i k o'. rewrite cnt_rm_refs, Hc. apply Nat.add_sub.
  Qed.

  Theorem rejected_insert_noop t o t' :
    Inv t -> add kinds t o = (t', RRejected) -> same_table t' t.
  Proof.
    intros I. unfold add. destruct (mem o (objs t)) eqn:M; [discriminate|].
    assert (Hni : ~ In o (objs t)) by (rewrite <- mem_In; congruence).
    intros A. apply mk_indices_rejected in A; [|now apply (inv_refs_dom _ I)].
    destruct A as (Eo & Er & Ei & Ea & Eia). cbn [drop objs refs idxs attrs iattrs] in *.
    rewrite remove_first_app_last in Eo by assumption. repeat split; assumption.
  Qed.

  (* A bulk insert that is rejected has PREFIX semantics: the table is (in the sense of same_table) the table
     after the (accepted) insertion of the elements before the offending one; the offending element and
     everything behind it left no trace. *)
  Theorem rejected_batch_is_prefix os : forall t t',
    Inv t -> add_many kinds t os = (t', RRejected) ->
    exists pre o post t1,
      os = pre ++ o :: post /\ add_many kinds t pre = (t1, ROk) /\
      (exists t1', add kinds t1 o = (t1', RRejected)) /\ same_table t' t1.
  Proof.
    induction os as [|o r IH]; intros t t' I H; cbn [add_many] in H; [discriminate|].
    pose proof (add_inv t o I) as I1. destruct (add kinds t o) as [t1 x] eqn:A. cbn [fst] in I1.
    destruct x.
    - destruct (IH t1 t' I1 H) as (pre & o' & post & t2 & -> & Hp & Hr & Hs).
      exists (o :: pre), o', post, t2. cbn [app add_many]. now rewrite A.
    - injection H as <-. exists [], o, r, t. cbn [app add_many].
      split; [reflexivity|split; [reflexivity|split; [exists t1; exact A|]]].
      exact (rejected_insert_noop t o t1 I A).
    - discriminate.
  Qed.

  (* an accepted bulk operation is the sequence of the single operations *)
  Lemma add_many_ok_is_run os : forall t t',
    add_many kinds t os = (t', ROk) -> fst (run kinds t (map Add os)) = t'.
  Proof.
    induction os as [|o r IH]; intros t t' H; cbn [add_many map] in *.
    - now injection H as <-.
    - rewrite run_fst. cbn [step]. destruct (add kinds t o) as [t1 x]. cbn [fst].
      destruct x; [now apply IH|discriminate H..].
  Qed.

  Lemma remove_many_is_run os : forall t,
    fst (run kinds t (map Remove os)) = fst (remove_many t os).
  Proof.
    induction os as [|o r IH]; intros t; cbn [remove_many map]; [reflexivity|].
    rewrite run_fst. cbn [step]. apply IH.
  Qed.

  (* a bulk insert never reports "object not known" *)
  Lemma add_many_not_valueerror os : forall t t', add_many kinds t os <> (t', RValueError).
  Proof.
    induction os as [|o r IH]; intros t t' H; cbn [add_many] in H; [discriminate|].
    destruct (add kinds t o) as [t1 x] eqn:A. destruct x; [now apply IH in H|discriminate|].
    unfold add in A. destruct (mem o (objs t)); [discriminate|]. unfold mk_indices in A.
    destruct (mk_loop _ _ _ _ _ _) as [[ixs acc] rej]. destruct rej; discriminate.
  Qed.
End Inv.
