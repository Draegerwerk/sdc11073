(* Proofs about the invocation model (property C09). *)
From Coq Require Import List ZArith Bool Lia Sorted.
From SDC Require Import Common.ListFacts Invocation.Model.
Import ListNotations.
Open Scope Z_scope.

Lemma st_eqb_refl s : st_eqb s s = true.
Proof. destruct s; reflexivity. Qed.
Lemma st_eqb_eq a b : st_eqb a b = true -> a = b.
Proof. destruct a, b; simpl; intros; try reflexivity; discriminate. Qed.

Lemma resp_of_app id a b : resp_of id (a ++ b) = resp_of id a ++ resp_of id b.
Proof. unfold resp_of. apply flat_map_app. Qed.
Lemma parts_of_app id a b : parts_of id (a ++ b) = parts_of id a ++ parts_of id b.
Proof. unfold parts_of. apply flat_map_app. Qed.
Lemma resp_ids_app a b : resp_ids (a ++ b) = resp_ids a ++ resp_ids b.
Proof. unfold resp_ids. apply flat_map_app. Qed.

Lemma zseq_app a n m : zseq a (n + m) = zseq a n ++ zseq (a + Z.of_nat n) m.
Proof.
  revert a; induction n as [|n IH]; intros a; simpl.
  - now rewrite Z.add_0_r.
  - rewrite IH. do 3 f_equal. lia.
Qed.
Lemma zseq_lower a n x : In x (zseq a n) -> a <= x < a + Z.of_nat n.
Proof.
  revert a; induction n as [|n IH]; intros a; simpl; [tauto|].
  intros [E | H]; [lia|]. apply IH in H. lia.
Qed.
Lemma zseq_sorted a n : StronglySorted Z.lt (zseq a n).
Proof.
  revert a; induction n as [|n IH]; intros a; simpl; constructor; auto.
  apply Forall_forall. intros x H. apply zseq_lower in H. lia.
Qed.
Lemma zseq_nodup a n : NoDup (zseq a n).
Proof.
  revert a; induction n as [|n IH]; intros a; simpl; constructor; auto.
  intros H. apply zseq_lower in H. lia.
Qed.

Section ProviderProofs.
  Variable qcap : nat.
  Variable dresp : istate -> istate.
  Variable rresp : istate.
  (* a full queue refuses: all provider results are about the code in which queue.Full is not swallowed *)
  Notation pstep := (pstep qcap dresp rresp false).
  Notation prun := (prun qcap dresp rresp false).

  Lemma prun_app s a b :
    prun s (a ++ b) =
    let '(s1, o1) := prun s a in let '(s2, o2) := prun s1 b in (s2, o1 ++ o2).
  Proof.
    revert s; induction a as [|e a IH]; intros s; simpl.
    - destruct (prun s b); reflexivity.
    - destruct (pstep s e) as [s1 o1]. rewrite IH.
      destruct (prun s1 a) as [s2 o2]. destruct (prun s2 b) as [s3 o3].
      now rewrite app_assoc.
  Qed.

  (* every request gets the next number, whatever else happens *)
  Lemma pstep_ids s e :
    match e with
    | EvReq _ => resp_ids (snd (pstep s e)) = [p_next s + 1] /\ p_next (fst (pstep s e)) = p_next s + 1
    | _ => resp_ids (snd (pstep s e)) = [] /\ p_next (fst (pstep s e)) = p_next s
    end.
  Proof.
    destruct e as [r| |]; simpl.
    - destruct (r_known r); simpl; [|auto].
      destruct (r_direct r); simpl; [auto|].
      destruct (qcap <=? length (p_queue s))%nat; simpl; auto.
    - destruct (p_cur s) as [[i r]|]; simpl; auto.
      destruct (p_queue s) as [|[i r] q]; simpl; auto.
    - destruct (p_cur s) as [[i r]|]; simpl; auto.
  Qed.

  Lemma prun_ids es : forall s,
    resp_ids (snd (prun s es)) = zseq (p_next s + 1) (count_reqs es) /\
    p_next (fst (prun s es)) = p_next s + Z.of_nat (count_reqs es).
  Proof.
    induction es as [|e es IH]; intros s; simpl.
    - split; [reflexivity|lia].
    - pose proof (pstep_ids s e) as H.
      destruct (pstep s e) as [s1 o1] eqn:E1. simpl in H.
      specialize (IH s1). destruct (prun s1 es) as [s2 o2] eqn:E2. simpl in *.
      rewrite resp_ids_app.
      destruct e; destruct H as [Ha Hb]; destruct IH as [Hc Hd]; rewrite Ha, Hc, Hd, Hb; simpl; split;
        try reflexivity; try lia.
  Qed.

  (* The invariant [pinv s o] ties a state to the outputs [o] produced so far.  Its main clause is [inv_tx]: every
     request (id, r) of the history has got exactly one response [x], the one [exp_resp] allows, and the report
     parts [exp_parts] lists for the phase the request is in (queued, with the worker, finished).  [inv_q] and
     [inv_cur] say that what is queued or with the worker is a known, queued operation of the history that was
     answered Wait; [inv_q_nodup] and [inv_cur_notq] that it is there once; [inv_hist_le] and [inv_fresh] that
     larger ids have neither history nor outputs yet.  [pinv_req] and [pinv_work] are the two ways a step keeps
     it; the theorems read [inv_tx] for one transaction of a run from [pinit]. *)
  Definition inq (id : Z) (q : list (Z * req)) : bool := existsb (fun x => fst x =? id) q.
  Definition iscur (id : Z) (c : option (Z * req)) : bool :=
    match c with Some (i, _) => i =? id | None => false end.
  Definition is_some {A} (x : option A) : bool := match x with Some _ => true | None => false end.

  (* [acc]: the request was answered with a response, not refused with a fault (in [inv_tx]: [is_some x]) *)
  Definition exp_parts (s : pstate) (id : Z) (r : req) (acc : bool) : list part :=
    if negb (r_known r) then []
    else if r_direct r then [final_part id r]
    else if negb acc then []
    else if inq id (p_queue s) then []
    else if iscur id (p_cur s) then [progress_part id r Wait; progress_part id r Start]
    else [progress_part id r Wait; progress_part id r Start; final_part id r].

  Definition wait_info (id : Z) : info := mkInfo id Wait ENone false.

  Definition exp_resp (id : Z) (r : req) (x : option info) : Prop :=
    if negb (r_known r) then x = Some (mkInfo id Fail Inv true)
    else if r_direct r then
      x = Some (mkInfo id (match r_out r with Returns st => dresp st | Raises => rresp end) ENone false)
    else x = None \/ x = Some (wait_info id).

  Definition work_ok (s : pstate) (o : list pout) (id : Z) (r : req) : Prop :=
    In (id, r) (p_hist s) /\ r_known r = true /\ r_direct r = false /\
    resp_of id o = [Some (wait_info id)].

  Record pinv (s : pstate) (o : list pout) : Prop := {
    inv_hist_le : forall id r, In (id, r) (p_hist s) -> id <= p_next s;
    inv_hist_nodup : NoDup (map fst (p_hist s));
    inv_q : forall id r, In (id, r) (p_queue s) -> work_ok s o id r;
    inv_cur : forall id r, p_cur s = Some (id, r) -> work_ok s o id r;
    inv_q_nodup : NoDup (map fst (p_queue s));
    inv_cur_notq : forall id r, p_cur s = Some (id, r) -> inq id (p_queue s) = false;
    inv_tx : forall id r, In (id, r) (p_hist s) ->
             exists x, resp_of id o = [x] /\ exp_resp id r x /\ parts_of id o = exp_parts s id r (is_some x);
    inv_fresh : forall id, p_next s < id -> resp_of id o = [] /\ parts_of id o = [];
    inv_execd : forall id, In id (p_execd s) -> exists r, In (id, r) (p_hist s) /\ r_known r = true
  }.

  Lemma pinv_init n mv : pinv (pinit n mv) [].
  Proof.
    constructor; simpl; try tauto; try constructor; try discriminate; auto.
  Qed.

  Lemma inq_false_iff id q : inq id q = false <-> ~ In id (map fst q).
  Proof.
    unfold inq. induction q as [|[i r] q IH]; simpl; [tauto|].
    rewrite orb_false_iff, IH, Z.eqb_neq. tauto.
  Qed.
  Lemma inq_false_notin id q : inq id q = false -> ~ In id (map fst q).
  Proof. apply inq_false_iff. Qed.
  Lemma inq_app id q x : inq id (q ++ [x]) = inq id q || (fst x =? id).
  Proof. unfold inq. rewrite existsb_app. simpl. now rewrite orb_false_r. Qed.
  Lemma in_inq id r q : In (id, r) q -> inq id q = true.
  Proof.
    unfold inq. intros H. apply existsb_exists. exists (id, r). split; [assumption|simpl; lia].
  Qed.

  Lemma parts_of_other id p : i_id (p_info p) <> id -> parts_of id [OPart p] = [].
  Proof. intros H. unfold parts_of. simpl. destruct (i_id (p_info p) =? id) eqn:E; [lia|reflexivity]. Qed.

  Lemma final_part_id id r : i_id (p_info (final_part id r)) = id.
  Proof. unfold final_part. destruct (r_out r); reflexivity. Qed.

  (* the outputs of one step mention one transaction only: report parts of [id0], then possibly its response *)
  Lemma resp_of_parts id ps : resp_of id (map OPart ps) = [].
  Proof. induction ps; simpl; auto. Qed.

  Lemma parts_of_map id id0 ps :
    Forall (fun p => i_id (p_info p) = id0) ps -> parts_of id (map OPart ps) = if id0 =? id then ps else [].
  Proof.
    induction 1 as [|p ps Hp _ IH]; [now destruct (id0 =? id)|].
    change (parts_of id (map OPart (p :: ps))) with ((if i_id (p_info p) =? id then [p] else []) ++ parts_of id (map OPart ps)).
    rewrite IH, Hp. now destruct (id0 =? id).
  Qed.

  Lemma resp_of_parts_only id o ps : resp_of id (o ++ map OPart ps) = resp_of id o.
  Proof. now rewrite resp_of_app, resp_of_parts, app_nil_r. Qed.

  Lemma exp_parts_same s s' id r acc :
    inq id (p_queue s') = inq id (p_queue s) -> iscur id (p_cur s') = iscur id (p_cur s) ->
    exp_parts s' id r acc = exp_parts s id r acc.
  Proof. unfold exp_parts. intros -> ->. reflexivity. Qed.

  Lemma exp_parts_ids s id r acc : Forall (fun p => i_id (p_info p) = id) (exp_parts s id r acc).
  Proof.
    unfold exp_parts.
    destruct (r_known r), (r_direct r), acc, (inq id (p_queue s)), (iscur id (p_cur s)); simpl;
      repeat constructor; apply final_part_id.
  Qed.

  (* a request gets the next id and enters the history; it may join the queue (then it is answered Wait) and
     may have been executed; its outputs are those expected of it in the new state *)
  Lemma pinv_req s o r x ps q' mv' ex' :
    let id' := p_next s + 1 in
    let s' := mkP id' q' (p_cur s) mv' ex' (p_hist s ++ [(id', r)]) in
    pinv s o ->
    (q' = p_queue s \/
     (q' = p_queue s ++ [(id', r)] /\ r_known r = true /\ r_direct r = false /\ x = Some (wait_info id'))) ->
    exp_resp id' r x -> ps = exp_parts s' id' r (is_some x) ->
    (ex' = p_execd s \/ (ex' = p_execd s ++ [id'] /\ r_known r = true)) ->
    pinv s' (o ++ map OPart ps ++ [OResp id' x]).
  Proof.
    intros id' s' I Hq Her Hp Hex. set (new := map OPart ps ++ [OResp id' x]).
    pose proof (exp_parts_ids s' id' r (is_some x)) as Hps. rewrite <- Hp in Hps.
    assert (Hnew : forall i r0, In (i, r0) (p_hist s) -> i <> id').
    { intros i r0 H. apply (inv_hist_le _ _ I) in H. unfold id'. lia. }
    destruct (inv_fresh _ _ I id' ltac:(unfold id'; lia)) as [Hfr Hfp].
    assert (Hqnew : ~ In id' (map fst (p_queue s))).
    { intros H. apply in_map_iff in H as [[i r0] [E H]]. simpl in E. subst i.
      apply (inv_q _ _ I) in H. destruct H as [H _]. now apply Hnew in H. }
    assert (Hout : forall id, resp_of id (o ++ new) = resp_of id o ++ (if id' =? id then [x] else []) /\
                              parts_of id (o ++ new) = parts_of id o ++ (if id' =? id then ps else [])).
    { intros id. unfold new. rewrite !resp_of_app, !parts_of_app, resp_of_parts, (parts_of_map id id' ps Hps).
      unfold resp_of, parts_of. simpl. now rewrite !app_nil_r. }
    assert (Hold : forall id, id <> id' ->
              resp_of id (o ++ new) = resp_of id o /\
              parts_of id (o ++ new) = parts_of id o).
    { intros id Hd. destruct (Hout id) as [-> ->]. now rewrite (proj2 (Z.eqb_neq id' id) (not_eq_sym Hd)), !app_nil_r. }
    destruct (Hout id') as [Hr' Hp']. rewrite Z.eqb_refl, Hfr in Hr'. rewrite Z.eqb_refl, Hfp in Hp'. simpl in Hr', Hp'.
    assert (Hinq : forall id, id <> id' -> inq id q' = inq id (p_queue s)).
    { intros id Hd. destruct Hq as [->|[-> _]]; [reflexivity|]. rewrite inq_app. simpl.
      now rewrite (proj2 (Z.eqb_neq id' id) (not_eq_sym Hd)), orb_false_r. }
    assert (Hwork : forall id r0, work_ok s o id r0 -> work_ok s' (o ++ new) id r0).
    { intros id r0 (Ha & Hb & Hc' & Hd). pose proof (Hnew _ _ Ha) as Hne.
      split; [apply in_or_app; now left|]. repeat split; auto.
      now rewrite (proj1 (Hold id Hne)). }
    constructor; cbn [s' p_next p_queue p_cur p_execd p_hist].
    - intros i r0 H. apply in_app_or in H as [H|[H|[]]].
      + apply (inv_hist_le _ _ I) in H. lia.
      + inversion H. lia.
    - rewrite map_app. simpl. apply NoDup_snoc; [apply (inv_hist_nodup _ _ I)|].
      intros H. apply in_map_iff in H as [[i r0] [E H]]. simpl in E. subst i. now apply Hnew in H.
    - intros id r0 H. destruct Hq as [Hq|(Hq & Hk & Hd & Hx)]; rewrite Hq in H.
      + apply Hwork. now apply (inv_q _ _ I).
      + apply in_app_or in H as [H|[H|[]]]; [apply Hwork; now apply (inv_q _ _ I)|].
        inversion H; subst id r0. split; [apply in_or_app; right; now left|].
        repeat split; auto. rewrite Hr', Hx. reflexivity.
    - intros id r0 H. apply Hwork. now apply (inv_cur _ _ I).
    - destruct Hq as [->|[-> _]]; [apply (inv_q_nodup _ _ I)|].
      rewrite map_app. simpl. apply NoDup_snoc; [apply (inv_q_nodup _ _ I)|assumption].
    - intros id r0 H. pose proof (inv_cur_notq _ _ I _ _ H) as Hn'.
      destruct (inv_cur _ _ I _ _ H) as [Hin _]. apply Hnew in Hin. now rewrite Hinq.
    - intros id r0 H. apply in_app_or in H as [H|[H|[]]].
      + pose proof (Hnew _ _ H) as Hne. destruct (inv_tx _ _ I _ _ H) as (x0 & Ha & Hb & Hc').
        exists x0. destruct (Hold id Hne) as [-> ->]. repeat split; auto.
        rewrite Hc'. symmetry. apply exp_parts_same; [now apply Hinq|reflexivity].
      + inversion H; subst id r0. exists x. rewrite Hr', Hp', <- Hp. auto.
    - intros id H. assert (Hd : id <> id') by lia.
      destruct (Hold id Hd) as [-> ->]. apply (inv_fresh _ _ I). unfold id' in H. lia.
    - intros id H. assert (In id (p_execd s) \/ id = id' /\ r_known r = true) as [H'|[-> Hk]].
      { destruct Hex as [Hex|[Hex Hk]]; rewrite Hex in H; [now left|].
        apply in_app_or in H as [H|[<-|[]]]; auto. }
      + destruct (inv_execd _ _ I _ H') as (r0 & Ha & Hb). exists r0. split; [|assumption].
        apply in_or_app. now left.
      + exists r. split; [|assumption]. apply in_or_app. right. now left.
  Qed.

  Lemma work_ok_parts s s' o ps id r :
    p_hist s' = p_hist s -> work_ok s o id r -> work_ok s' (o ++ map OPart ps) id r.
  Proof.
    intros Hh (Ha & Hb & Hc & Hd). split; [now rewrite Hh|]. repeat split; auto.
    now rewrite resp_of_parts_only.
  Qed.

  (* a step of the worker on the operation (id0, r0): it reports [ps], all of id0, and moves id0 from the
     queue to the worker or out of the worker; ids, history and every other transaction stay as they are *)
  Lemma pinv_work s o id0 r0 ps q' c' mv' ex' :
    let s' := mkP (p_next s) q' c' mv' ex' (p_hist s) in
    pinv s o -> work_ok s o id0 r0 ->
    incl q' (p_queue s) -> NoDup (map fst q') ->
    (forall id r, c' = Some (id, r) -> (id, r) = (id0, r0) /\ inq id0 q' = false) ->
    (forall id, id <> id0 -> inq id q' = inq id (p_queue s) /\ iscur id c' = iscur id (p_cur s)) ->
    exp_parts s' id0 r0 true = exp_parts s id0 r0 true ++ ps ->
    (forall id, In id ex' -> In id (p_execd s) \/ id = id0) ->
    pinv s' (o ++ map OPart ps).
  Proof.
    intros s' I W0 Hq Hnd Hc Hoth Hexp Hex. pose proof W0 as (Hin & Hk & Hdir & Hr).
    pose proof (exp_parts_ids s' id0 r0 true) as Hps. rewrite Hexp in Hps. apply Forall_app in Hps as [_ Hps].
    constructor; cbn [s' p_next p_queue p_cur p_execd p_hist].
    - apply (inv_hist_le _ _ I).
    - apply (inv_hist_nodup _ _ I).
    - intros id r H. apply (work_ok_parts s); [reflexivity|]. apply (inv_q _ _ I), Hq, H.
    - intros id r H. destruct (Hc _ _ H) as [E _]. inversion E; subst. now apply (work_ok_parts s).
    - exact Hnd.
    - intros id r H. destruct (Hc _ _ H) as [E Hnq]. inversion E; subst. exact Hnq.
    - intros id r H. destruct (inv_tx _ _ I _ _ H) as (x & Ha & Hb & Hd).
      exists x. rewrite resp_of_parts_only. repeat split; auto.
      rewrite parts_of_app, Hd, (parts_of_map id id0 ps Hps). destruct (id0 =? id) eqn:E.
      + apply Z.eqb_eq in E. subst id.
        assert (r = r0) by apply (NoDup_fst_fun (p_hist s) id0 r r0 (inv_hist_nodup _ _ I) H Hin). subst r.
        rewrite Hr in Ha. inversion Ha; subst x. symmetry. exact Hexp.
      + rewrite app_nil_r. symmetry. apply exp_parts_same; apply Hoth; lia.
    - intros id H. rewrite resp_of_parts_only, parts_of_app, (parts_of_map id id0 ps Hps).
      destruct (inv_fresh _ _ I id H) as [-> ->]. apply (inv_hist_le _ _ I) in Hin.
      destruct (id0 =? id) eqn:E; [lia|auto].
    - intros id H. destruct (Hex id H) as [H'| ->]; [now apply (inv_execd _ _ I)|].
      exists r0. auto.
  Qed.

  Lemma pinv_step s o e : pinv s o -> pinv (fst (pstep s e)) (o ++ snd (pstep s e)).
  Proof.
    intros I. destruct e as [r| |].
    - set (id' := p_next s + 1). cbn [pstep]. fold id'.
      destruct (r_known r) eqn:Ek; cbn [negb fst snd].
      2:{ apply (pinv_req s o r (Some (mkInfo id' Fail Inv true)) [] _ _ _ I);
            [now left| | |now left]; unfold exp_resp, exp_parts; now rewrite Ek. }
      destruct (r_direct r) eqn:Ed; cbn [fst snd].
      { apply (pinv_req s o r _ [final_part id' r] _ _ _ I);
          [now left| | |now right]; unfold exp_resp, exp_parts; now rewrite Ek, Ed. }
      destruct (qcap <=? length (p_queue s))%nat eqn:Eq; cbn [fst snd].
      { apply (pinv_req s o r None [] _ _ _ I);
          [now left| | |now left]; unfold exp_resp, exp_parts; rewrite Ek, Ed; simpl; auto. }
      apply (pinv_req s o r (Some (wait_info id')) [] _ _ _ I);
        [right; auto| | |now left]; unfold exp_resp, exp_parts; rewrite Ek, Ed; [now right|].
      cbn [negb is_some p_queue]. rewrite inq_app. cbn [fst]. now rewrite Z.eqb_refl, orb_true_r.
    - simpl. destruct (p_cur s) as [[i r]|] eqn:Ec; simpl; [now rewrite app_nil_r|].
      destruct (p_queue s) as [|[i r] q] eqn:Eq; simpl; [now rewrite app_nil_r|].
      (* take: (i, r) moves from the head of the queue to the worker *)
      assert (W0 : work_ok s o i r). { apply (inv_q _ _ I). rewrite Eq. now left. }
      pose proof (inv_q_nodup _ _ I) as N. rewrite Eq in N. inversion N as [|? ? Hn0 N']; subst.
      apply inq_false_iff in Hn0. pose proof W0 as (_ & Hk & Hdir & _).
      apply (pinv_work s o i r [progress_part i r Wait; progress_part i r Start] _ _ _ _ I W0); auto.
      + rewrite Eq. now apply incl_tl, incl_refl.
      + intros id r1 H. inversion H; subst. auto.
      + intros id Hd. rewrite Eq, Ec. simpl. now rewrite (proj2 (Z.eqb_neq i id) (not_eq_sym Hd)).
      + unfold exp_parts. rewrite Hk, Hdir, Eq. simpl. now rewrite Z.eqb_refl, Hn0.
    - simpl. destruct (p_cur s) as [[i r]|] eqn:Ec; simpl; [|now rewrite app_nil_r].
      (* finish: (i, r) leaves the worker *)
      assert (W0 : work_ok s o i r) by now apply (inv_cur _ _ I).
      pose proof (inv_cur_notq _ _ I _ _ Ec) as Hnq. pose proof W0 as (_ & Hk & Hdir & _).
      apply (pinv_work s o i r [final_part i r] _ _ _ _ I W0); try discriminate.
      + apply incl_refl.
      + apply (inv_q_nodup _ _ I).
      + intros id Hd. rewrite Ec. simpl. now rewrite (proj2 (Z.eqb_neq i id) (not_eq_sym Hd)).
      + unfold exp_parts. rewrite Hk, Hdir, Ec. simpl. now rewrite Hnq, Z.eqb_refl.
      + intros id H. apply in_app_or in H as [H|[<-|[]]]; auto.
  Qed.

  Lemma pinv_run es : forall s o, pinv s o -> pinv (fst (prun s es)) (o ++ snd (prun s es)).
  Proof.
    induction es as [|e es IH]; intros s o I; simpl; [now rewrite app_nil_r|].
    pose proof (pinv_step s o e I) as I1. destruct (pstep s e) as [s1 o1]. simpl in I1.
    specialize (IH s1 (o ++ o1) I1). destruct (prun s1 es) as [s2 o2]. simpl in *.
    now rewrite app_assoc.
  Qed.

  Lemma hist_step s e id r :
    In (id, r) (p_hist (fst (pstep s e))) -> In (id, r) (p_hist s) \/ e = EvReq r.
  Proof.
    destruct e as [r'| |]; simpl.
    - destruct (r_known r'); simpl; [destruct (r_direct r'); simpl;
        [|destruct (qcap <=? length (p_queue s))%nat; simpl]|];
      intros H; apply in_app_or in H as [H|[H|[]]]; auto; inversion H; auto.
    - destruct (p_cur s) as [[i r']|]; simpl; auto. destruct (p_queue s) as [|[i r'] q]; simpl; auto.
    - destruct (p_cur s) as [[i r']|]; simpl; auto.
  Qed.
  Lemma hist_run es : forall s id r,
    In (id, r) (p_hist (fst (prun s es))) -> In (id, r) (p_hist s) \/ In (EvReq r) es.
  Proof.
    induction es as [|e es IH]; intros s id r; simpl; auto.
    pose proof (hist_step s e id r) as Hs. destruct (pstep s e) as [s1 o1]. simpl in Hs.
    specialize (IH s1 id r). destruct (prun s1 es) as [s2 o2]. simpl in *.
    intros H. destruct (IH H) as [H1|H1]; auto. destruct (Hs H1); auto.
  Qed.

  Definition run_inv n mv es := pinv_run es (pinit n mv) [] (pinv_init n mv).

  Lemma quiescent_idle s id : quiescent s = true -> inq id (p_queue s) = false /\ iscur id (p_cur s) = false.
  Proof. unfold quiescent. destruct (p_queue s); [|discriminate]. destruct (p_cur s); [discriminate|]. auto. Qed.

  Section Repaired.
    Hypothesis Hd : forall st, final st = true -> dresp st = st.
    Hypothesis Hrr : rresp = Fail.

    Theorem prov_legal es n mv :
      reqs_ok es ->
      let s := fst (prun (pinit n mv) es) in
      let o := snd (prun (pinit n mv) es) in
      forall id r, In (id, r) (p_hist s) ->
      exists x, resp_of id o = [x] /\
        match x with
        | None => r_known r = true /\ r_direct r = false /\ parts_of id o = []
        | Some i => i_id i = id /\
                    tx_legal_prefix (i_st i) (part_states (parts_of id o)) = true /\
                    (quiescent s = true -> tx_legal (i_st i) (part_states (parts_of id o)) = true)
        end.
    Proof.
      intros Hok s o id r H. pose proof (run_inv n mv es) as I. simpl in I. fold s o in I.
      destruct (inv_tx _ _ I _ _ H) as (x & Ha & He & Hp). exists x. split; [assumption|].
      assert (Ho : out_ok r).
      { destruct (hist_run es _ _ _ H) as [[]|Hin]. unfold reqs_ok in Hok. rewrite Forall_forall in Hok. apply (Hok _ Hin). }
      rewrite Hp. clear I H Ha Hp. unfold out_ok in Ho. unfold exp_resp in He. unfold exp_parts.
      destruct (r_known r) eqn:Ek; simpl in *.
      2:{ subst x. simpl. auto. }
      destruct (r_direct r) eqn:Ed; simpl in *.
      { subst x. simpl. unfold final_part. destruct (r_out r) as [st|] eqn:Eo.
        - rewrite (Hd st Ho). simpl. destruct st; try discriminate; auto.
        - rewrite Hrr. simpl. auto. }
      destruct He as [->| ->]; simpl; [auto|].
      split; [reflexivity|].
      assert (Hf : final (i_st (p_info (final_part id r))) = true).
      { unfold final_part. destruct (r_out r) as [st|]; simpl; auto. }
      (* queued or with the worker: not at rest *)
      destruct (inq id (p_queue s)) eqn:Eq.
      { simpl. split; [reflexivity|]. intros Hq. destruct (quiescent_idle s id Hq). congruence. }
      destruct (iscur id (p_cur s)) eqn:Ec.
      { simpl. split; [reflexivity|]. intros Hq. destruct (quiescent_idle s id Hq). congruence. }
      simpl. destruct (i_st (p_info (final_part id r))); try discriminate; auto.
    Qed.

    Theorem prov_raise es n mv :
      let s := fst (prun (pinit n mv) es) in
      let o := snd (prun (pinit n mv) es) in
      forall id r, In (id, r) (p_hist s) -> r_known r = true -> r_out r = Raises ->
      (forall p, In p (parts_of id o) -> final (i_st (p_info p)) = true ->
                 p_info p = mkInfo id Fail Oth true) /\
      (r_direct r = true ->
         resp_of id o = [Some (mkInfo id Fail ENone false)] /\
         part_states (parts_of id o) = [Fail]) /\
      (r_direct r = false -> resp_of id o = [Some (mkInfo id Wait ENone false)] ->
         quiescent s = true ->
         exists p, In p (parts_of id o) /\ p_info p = mkInfo id Fail Oth true).
    Proof.
      intros s o id r H Hk Hr. pose proof (run_inv n mv es) as I. simpl in I. fold s o in I.
      destruct (inv_tx _ _ I _ _ H) as (x & Ha & Hb & Hc).
      unfold exp_resp in Hb. unfold exp_parts in Hc. rewrite Hk in *. simpl in *.
      assert (Hfp : final_part id r = mkPart (mkInfo id Fail Oth true) (r_op r) false).
      { unfold final_part. now rewrite Hr. }
      destruct (r_direct r) eqn:Ed.
      - rewrite Hr, Hrr in Hb. subst x. rewrite Hc, Hfp. simpl. repeat split; auto; try discriminate.
        intros p [<-|[]] _. reflexivity.
      - repeat split; try discriminate.
        + intros p Hp Hf. rewrite Hc in Hp. destruct (is_some x); simpl in Hp; [|tauto].
          destruct (inq id (p_queue s)); [destruct Hp|].
          destruct (iscur id (p_cur s)); simpl in Hp.
          * destruct Hp as [<-|[<-|[]]]; discriminate.
          * destruct Hp as [<-|[<-|[<-|[]]]]; try discriminate. now rewrite Hfp.
        + intros _ Hw Hq. rewrite Hw in Ha. inversion Ha; subst x. simpl in Hc.
          destruct (quiescent_idle s id Hq) as [E1 E2]. rewrite E1, E2 in Hc.
          exists (final_part id r). rewrite Hc. split; [simpl; auto|]. now rewrite Hfp.
    Qed.
  End Repaired.

  (* a request for an operation that is not registered: answered Fail/Inv with a message, nothing
     else happens -- no report, no handler, MdibVersion, queue and worker untouched *)
  Lemma unknown_step s r :
    r_known r = false ->
    pstep s (EvReq r) =
    (mkP (p_next s + 1) (p_queue s) (p_cur s) (p_mv s) (p_execd s) (p_hist s ++ [(p_next s + 1, r)]),
     [OResp (p_next s + 1) (Some (mkInfo (p_next s + 1) Fail Inv true))]).
  Proof. intros H. simpl. now rewrite H. Qed.

  Theorem prov_unknown es n mv :
    let s := fst (prun (pinit n mv) es) in
    let o := snd (prun (pinit n mv) es) in
    forall id r, In (id, r) (p_hist s) -> r_known r = false ->
    resp_of id o = [Some (mkInfo id Fail Inv true)] /\ parts_of id o = [] /\ ~ In id (p_execd s).
  Proof.
    intros s o id r H Hk. pose proof (run_inv n mv es) as I. simpl in I. fold s o in I.
    destruct (inv_tx _ _ I _ _ H) as (x & Ha & Hb & Hc).
    unfold exp_resp in Hb. unfold exp_parts in Hc. rewrite Hk in *. simpl in *. subst x.
    repeat split; auto. intros Hin. destruct (inv_execd _ _ I _ Hin) as (r' & H1 & H2).
    assert (r' = r) by apply (NoDup_fst_fun _ _ _ _ (inv_hist_nodup _ _ I) H1 H). subst. congruence.
  Qed.

  (* the only way to be refused with a fault: the queue holds qcap operations *)
  Lemma fault_iff s r id :
    In (OResp id None) (snd (pstep s (EvReq r))) <->
    id = p_next s + 1 /\ r_known r = true /\ r_direct r = false /\ (qcap <= length (p_queue s))%nat.
  Proof.
    simpl. destruct (r_known r); simpl.
    2:{ split; [intros [H|[]]; discriminate|intros (_ & H & _); discriminate]. }
    destruct (r_direct r); simpl.
    { split; [intros [H|[H|[]]]; discriminate|intros (_ & _ & H & _); discriminate]. }
    destruct (qcap <=? length (p_queue s))%nat eqn:E; simpl.
    - apply Nat.leb_le in E. split; [intros [H|[]]; inversion H; repeat split; auto|intros (-> & _); now left].
    - apply Nat.leb_gt in E. split; [intros [H|[]]; discriminate|intros (_ & _ & _ & H); lia].
  Qed.

  Lemma queue_bounded es : forall s, (length (p_queue s) <= qcap)%nat ->
    (length (p_queue (fst (prun s es))) <= qcap)%nat.
  Proof.
    induction es as [|e es IH]; intros s H; simpl; auto.
    assert (H1 : (length (p_queue (fst (pstep s e))) <= qcap)%nat).
    { destruct e as [r| |]; simpl.
      - destruct (r_known r); simpl; auto. destruct (r_direct r); simpl; auto.
        destruct (qcap <=? length (p_queue s))%nat eqn:E; simpl; auto. apply Nat.leb_gt in E. rewrite app_length. simpl. lia.
      - destruct (p_cur s) as [[i r]|]; simpl; auto. destruct (p_queue s) as [|[i r] q] eqn:Eq; simpl; [now rewrite Eq|]. simpl in H. lia.
      - destruct (p_cur s) as [[i r]|]; simpl; auto. }
    destruct (pstep s e) as [s1 o1]. specialize (IH s1 H1). destruct (prun s1 es). exact IH.
  Qed.

  (* the worker left alone comes to rest: one Take/Finish round per outstanding operation *)

  Lemma drains n : forall s, (outstanding s <= n)%nat -> quiescent (fst (prun s (drain n))) = true.
  Proof.
    induction n as [|n IH]; intros s H.
    - unfold outstanding in H. simpl. unfold quiescent.
      destruct (p_queue s); [|simpl in H; lia]. destruct (p_cur s); [simpl in H; lia|reflexivity].
    - unfold outstanding in H.
      change (drain (S n)) with ([EvTake; EvFinish] ++ drain n). rewrite prun_app.
      assert (Hs : (outstanding (fst (prun s [EvTake; EvFinish])) <= n)%nat).
      { clear IH. destruct s as [nx q c mv ex h]. unfold outstanding in *. simpl in *.
        destruct c as [[i r]|]; [simpl; lia|]. destruct q as [|[i r] q]; simpl in *; lia. }
      destruct (prun s [EvTake; EvFinish]) as [s1 o1]. simpl in Hs.
      specialize (IH s1 Hs). destruct (prun s1 (drain n)) as [s2 o2]. exact IH.
  Qed.

  Lemma reqs_ok_drain es n : reqs_ok es -> reqs_ok (es ++ drain n).
  Proof.
    intros H. apply Forall_app. split; [assumption|]. induction n; simpl; repeat constructor; auto.
  Qed.

  Lemma outstanding_bounded es n mv :
    (outstanding (fst (prun (pinit n mv) es)) <= S qcap)%nat.
  Proof.
    pose proof (queue_bounded es (pinit n mv)) as H. simpl in H.
    specialize (H ltac:(lia)). unfold outstanding. destruct (p_cur _); lia.
  Qed.

  Lemma drained_quiescent es n mv :
    quiescent (fst (prun (pinit n mv) (es ++ drain (S qcap)))) = true.
  Proof.
    rewrite prun_app. pose proof (outstanding_bounded es n mv) as H.
    destruct (prun (pinit n mv) es) as [s1 o1]. simpl in H.
    pose proof (drains (S qcap) s1 H) as Hq. destruct (prun s1 (drain (S qcap))) as [s2 o2]. exact Hq.
  Qed.
End ProviderProofs.

(* the three shapes of a legal exchange.  Each [destruct] follows a [discriminate] that has pruned the
   impossible states, so few goals are ever open *)
Lemma tx_legal_inv resp sts : tx_legal resp sts = true ->
  (resp = Wait /\ exists f, final f = true /\ sts = [Wait; Start; f]) \/
  (final resp = true /\ sts = [resp]) \/ (resp = Fail /\ sts = []).
Proof.
  intros H. destruct resp; [left; split; [reflexivity|] | right..].
  { destruct sts as [|a [|b [|f [|d l]]]]; simpl in H; try discriminate H;
      destruct a; try discriminate H; destruct b; try discriminate H.
    eauto. }
  all: destruct sts as [|a [|b l]]; try discriminate H; try apply st_eqb_eq in H as <-; auto.
Qed.

(* the words of the statement: the states of one transaction, in the order response, reports, read
   "Wait, Start, one final state" or "one final state" once an immediately repeated state is counted once *)
Lemma tx_legal_word resp sts : tx_legal resp sts = true -> legal_word (collapse (resp :: sts)) = true.
Proof.
  intros H. destruct (tx_legal_inv _ _ H) as [(-> & f & Hf & ->)|[(Hf & ->)|(-> & ->)]].
  - destruct f; try discriminate; reflexivity.
  - destruct resp; try discriminate; reflexivity.
  - reflexivity.
Qed.

Section AssocFacts.
  Context {V : Type}.
  Lemma aget_aset k k' (v : V) l : aget k (aset k' v l) = if k' =? k then Some v else aget k l.
  Proof.
    induction l as [|[k2 v2] l IH]; simpl; [reflexivity|].
    destruct (Z.eqb_spec k2 k') as [->|N]; simpl; [now destruct (k' =? k)|].
    rewrite IH. destruct (Z.eqb_spec k2 k) as [->|_]; [|reflexivity]. destruct (Z.eqb_spec k' k); congruence.
  Qed.
  Lemma aget_adel k k' (l : list (Z * V)) : aget k (adel k' l) = if k' =? k then None else aget k l.
  Proof.
    induction l as [|[k2 v2] l IH]; simpl; [now destruct (k' =? k)|].
    destruct (Z.eqb_spec k2 k') as [->|N]; simpl; rewrite IH; [now destruct (k' =? k)|].
    destruct (Z.eqb_spec k2 k) as [->|_]; [|reflexivity]. destruct (Z.eqb_spec k' k); congruence.
  Qed.
End AssocFacts.

Lemma lastn_app_keep {A} (n : nat) (a b : list A) :
  (length b <= n)%nat -> lastn n (a ++ b) = lastn (n - length b) a ++ b.
Proof.
  intros H. unfold lastn. rewrite skipn_app, app_length.
  replace (length a + length b - n - length a)%nat with O by lia. simpl.
  f_equal. f_equal. lia.
Qed.

Lemma own_app id a b : own id (a ++ b) = own id a ++ own id b.
Proof. unfold own. apply filter_app. Qed.
Lemma own_skipn id m : forall l, own id l = [] -> own id (skipn m l) = [].
Proof.
  induction m as [|m IH]; intros l H; simpl; auto.
  destruct l as [|x l]; auto. apply IH. unfold own in *. simpl in H.
  destruct (cp_id x =? id); [discriminate|assumption].
Qed.

Lemma own_parts_app id a b : own_parts id (a ++ b) = own_parts id a ++ own_parts id b.
Proof. unfold own_parts. apply flat_map_app. Qed.

Section ConsumerProofs.
  Variable cap : nat.
  Variable kp : bool.
  Variable completing nonfinal : istate -> bool.
  Variable id : Z.
  Notation cstep := (cstep cap kp completing nonfinal).
  Notation crun := (crun cap kp completing nonfinal).

  Lemma crun_app s a b : crun s (a ++ b) = crun (crun s a) b.
  Proof. unfold crun. apply fold_left_app. Qed.

  Lemma done_of_snoc s p r j x :
    done_of id (mkC p r (c_done s ++ [(j, x)])) = done_of id s ++ (if j =? id then [x] else []).
  Proof. unfold done_of. simpl. rewrite flat_map_app. simpl. now rewrite app_nil_r. Qed.

  (* what the manager holds about [id]: its pending entry and its completions *)
  Definition view (s : cstate) : option (istate * list cpart) * list cres := (aget id (c_pend s), done_of id s).

  (* an event of another transaction changes neither *)
  Lemma step_other s e : mentions id e = false -> view (cstep s e) = view s.
  Proof.
    unfold view. destruct e as [j st|p]; simpl; intros H; apply pair_equal_spec.
    - destruct (completing st); simpl.
      + split; [reflexivity|]. rewrite done_of_snoc. destruct (j =? id); [discriminate|]. now rewrite app_nil_r.
      + destruct (filter _ _) as [|f l]; simpl.
        * split; [|reflexivity]. now rewrite aget_aset, H.
        * split; [reflexivity|]. rewrite done_of_snoc. destruct (j =? id); [discriminate|]. now rewrite app_nil_r.
    - destruct (aget (cp_id p) (c_pend s)) as [[rst ps]|]; simpl; [|auto].
      destruct (nonfinal (cp_st p)); simpl.
      + split; [|reflexivity]. now rewrite aget_aset, H.
      + split; [now rewrite aget_adel, H|]. rewrite done_of_snoc.
        destruct (cp_id p =? id); [discriminate|]. now rewrite app_nil_r.
  Qed.

  (* apart from the response, the view changes with the report parts of [id] only, one [vpart] each: a part that
     finds the call registered is appended if its state is not final, else it completes the call; a part that
     finds nothing registered goes to the buffer *)
  Definition vpart (v : option (istate * list cpart) * list cres) (p : cpart) :=
    match fst v with
    | Some (rst, ps) =>
        if nonfinal (cp_st p) then (Some (rst, ps ++ [p]), snd v)
        else (None, snd v ++ [mkCR (cp_st p) rst false (ps ++ [p])])
    | None => v
    end.

  Lemma view_run post : forall s,
    noresp id post = true -> view (crun s post) = fold_left vpart (own_parts id post) (view s).
  Proof.
    induction post as [|e post IH]; intros s Hn; [reflexivity|].
    simpl in Hn. apply andb_prop in Hn as [Hn1 Hn2].
    change (crun s (e :: post)) with (crun (cstep s e) post). rewrite (IH _ Hn2).
    destruct (mentions id e) eqn:Hm.
    - destruct e as [j st|p]; simpl in Hm, Hn1; [lia|].
      unfold own_parts. simpl. rewrite Hm. simpl. f_equal.
      apply Z.eqb_eq in Hm. unfold view, vpart. simpl. rewrite Hm.
      destruct (aget id (c_pend s)) as [[rst ps]|] eqn:Eg; simpl; [|now rewrite Eg].
      destruct (nonfinal (cp_st p)); simpl.
      + now rewrite aget_aset, Z.eqb_refl.
      + now rewrite aget_adel, done_of_snoc, Z.eqb_refl.
    - rewrite (step_other s e Hm).
      destruct e as [j st|p]; [reflexivity|]. unfold own_parts. simpl. simpl in Hm. now rewrite Hm.
  Qed.

  (* nothing registered: nothing changes any more *)
  Lemma vpart_done ps : forall d, fold_left vpart ps (None, d) = (None, d).
  Proof. induction ps; auto. Qed.

  (* registered: the parts are collected until the final one completes the call *)
  Lemma vpart_wait rst f d nf : forall ps,
    Forall (fun p => nonfinal (cp_st p) = true) nf -> nonfinal (cp_st f) = false ->
    fold_left vpart (nf ++ [f]) (Some (rst, ps), d) = (None, d ++ [mkCR (cp_st f) rst false (ps ++ nf ++ [f])]).
  Proof.
    induction nf as [|q nf IH]; intros ps Hnf Hf; cbn [app fold_left].
    - unfold vpart. simpl. now rewrite Hf.
    - unfold vpart at 2. simpl. rewrite (Forall_inv Hnf), (IH _ (Forall_inv_tail Hnf) Hf). now rewrite <- app_assoc.
  Qed.

  (* before the response nothing is registered for [id]: its parts go to the buffer, and are still there as
     long as the buffer holds what has been put behind [old] *)
  Lemma buffered_own pre : forall s old app,
    view s = (None, []) -> c_recent s = old ++ app -> own id old = [] ->
    noresp id pre = true -> (length app + count_parts pre <= cap)%nat ->
    own id (c_recent (crun s pre)) = own id app ++ own_parts id pre.
  Proof.
    induction pre as [|e pre IH]; intros s old app Hv Hr Ho Hn Hk.
    - simpl. now rewrite Hr, own_app, Ho, app_nil_r.
    - simpl in Hn. apply andb_prop in Hn as [Hn1 Hn2].
      change (crun s (e :: pre)) with (crun (cstep s e) pre).
      (* an event that leaves the buffer alone belongs to another transaction *)
      assert (Other : mentions id e = false -> c_recent (cstep s e) = c_recent s ->
                (length app + count_parts pre <= cap)%nat ->
                own id (c_recent (crun (cstep s e) pre)) = own id app ++ own_parts id pre).
      { intros Hm Hrec Hk'. apply (IH _ old); auto; [now rewrite step_other|congruence]. }
      destruct e as [j st|p].
      + simpl in Hn1. apply Other; [simpl; lia| |exact Hk].
        simpl. destruct (completing st); simpl; auto. destruct (filter _ _); simpl; auto.
      + change (count_parts (CPart p :: pre)) with (S (count_parts pre)) in Hk.
        destruct (aget (cp_id p) (c_pend s)) as [[rst ps]|] eqn:Eg.
        * assert (Hne : cp_id p <> id). { intros E. rewrite E in Eg. unfold view in Hv. congruence. }
          replace (own_parts id (CPart p :: pre)) with (own_parts id pre).
          2:{ unfold own_parts. simpl. destruct (cp_id p =? id) eqn:E; [lia|reflexivity]. }
          apply Other; [simpl; lia| |lia].
          simpl. rewrite Eg. destruct (nonfinal (cp_st p)); simpl; auto.
        * (* the part goes into the bounded buffer *)
          assert (Hs : cstep s (CPart p) = mkC (c_pend s) (lastn cap (c_recent s ++ [p])) (c_done s)).
          { simpl. now rewrite Eg. }
          assert (Hlen : (length (app ++ [p]) <= cap)%nat) by (rewrite app_length; simpl; lia).
          rewrite Hs, (IH _ (lastn (cap - length (app ++ [p])) old) (app ++ [p])).
          -- rewrite own_app, <- app_assoc. reflexivity.
          -- exact Hv.
          -- simpl. rewrite Hr, <- app_assoc. now apply lastn_app_keep.
          -- unfold lastn. now apply own_skipn.
          -- exact Hn2.
          -- rewrite app_length. simpl. lia.
  Qed.

  Lemma before_response pre s0 :
    fresh id s0 -> noresp id pre = true -> (count_parts pre <= cap)%nat ->
    let s1 := crun s0 pre in
    aget id (c_pend s1) = None /\ done_of id s1 = [] /\ own id (c_recent s1) = own_parts id pre.
  Proof.
    intros (F1 & F2 & F3) Hn Hc s1.
    assert (Hv : view s0 = (None, [])) by (unfold view; now rewrite F1, F3).
    apply and_assoc. split.
    - apply pair_equal_spec. fold (view s1). unfold s1. rewrite (view_run pre s0 Hn), Hv. apply vpart_done.
    - apply (buffered_own pre s0 (c_recent s0) []); auto. now rewrite app_nil_r.
  Qed.

  (* a call that completes now stays completed, once *)
  Lemma completed_stays post s p r x :
    aget id p = None -> done_of id s = [] -> noresp id post = true ->
    let s2 := crun (mkC p r (c_done s ++ [(id, x)])) post in
    aget id (c_pend s2) = None /\ done_of id s2 = [x].
  Proof.
    intros Hp Hd Hn s2. apply pair_equal_spec. fold (view s2). unfold s2.
    rewrite (view_run post _ Hn). unfold view. simpl c_pend.
    rewrite Hp, done_of_snoc, Hd, Z.eqb_refl. apply vpart_done.
  Qed.

  (* a call that is registered completes at the final part *)
  Lemma registered_completes post s rst ps nf f :
    aget id (c_pend s) = Some (rst, ps) -> done_of id s = [] -> noresp id post = true ->
    own_parts id post = nf ++ [f] ->
    Forall (fun p => nonfinal (cp_st p) = true) nf -> nonfinal (cp_st f) = false ->
    aget id (c_pend (crun s post)) = None /\
    done_of id (crun s post) = [mkCR (cp_st f) rst false (ps ++ nf ++ [f])].
  Proof.
    intros Hp Hd Hn Ho Hnf Hf. apply pair_equal_spec. fold (view (crun s post)).
    rewrite (view_run post s Hn), Ho. unfold view. rewrite Hp, Hd. now apply vpart_wait.
  Qed.

  Lemma filter_nonfinal_nil (l : list cpart) :
    Forall (fun p => nonfinal (cp_st p) = true) l -> filter (fun p => negb (nonfinal (cp_st p))) l = [].
  Proof. induction 1 as [|x l Hx _ IH]; simpl; auto. now rewrite Hx. Qed.

  (* a response that completes the call at once: whatever is reported for the transaction (nothing at
     all for an unknown operation), the call completes at the response, once *)
  Theorem cons_completing pre post s0 rst :
    fresh id s0 -> noresp id pre = true -> noresp id post = true -> completing rst = true ->
    (count_parts pre <= cap)%nat ->
    let s' := crun s0 (pre ++ CResp id rst :: post) in
    aget id (c_pend s') = None /\
    done_of id s' = [mkCR rst rst true (if kp then own_parts id pre else [])].
  Proof.
    intros Hfr Hn1 Hn2 Hcp Hc s'. unfold s'. rewrite crun_app.
    destruct (before_response pre s0 Hfr Hn1 Hc) as (Hp & Hd & Hown).
    change (crun (crun s0 pre) (CResp id rst :: post)) with (crun (cstep (crun s0 pre) (CResp id rst)) post).
    simpl. rewrite Hown, Hcp. now apply completed_stays.
  Qed.

  Theorem cons_complete pre post s0 rst nf f :
    fresh id s0 -> noresp id pre = true -> noresp id post = true ->
    own_parts id pre ++ own_parts id post = nf ++ [f] ->
    Forall (fun p => nonfinal (cp_st p) = true) nf -> nonfinal (cp_st f) = false ->
    (count_parts pre <= cap)%nat ->
    let s' := crun s0 (pre ++ CResp id rst :: post) in
    aget id (c_pend s') = None /\
    done_of id s' =
      [if completing rst then mkCR rst rst true (if kp then own_parts id pre else [])
       else mkCR (cp_st f) rst false (nf ++ [f])].
  Proof.
    intros Hfr Hn1 Hn2 Ho Hnf Hf Hc s'. destruct (completing rst) eqn:Hcp.
    { exact (cons_completing pre post s0 rst Hfr Hn1 Hn2 Hcp Hc). }
    unfold s'. rewrite crun_app. destruct (before_response pre s0 Hfr Hn1 Hc) as (Hp & Hd & Hown).
    change (crun (crun s0 pre) (CResp id rst :: post)) with (crun (cstep (crun s0 pre) (CResp id rst)) post).
    simpl. rewrite Hown, Hcp.
    destruct (app_snoc_split _ _ _ _ Ho) as [[Hb Hall]|(nf2 & Hb & Hsp)].
    - (* the final part came before the response *)
      rewrite Hall, filter_app, (filter_nonfinal_nil _ Hnf). simpl. rewrite Hf. simpl.
      now apply completed_stays.
    - rewrite Hsp in Hnf. apply Forall_app in Hnf as [Hnf1 Hnf2].
      rewrite (filter_nonfinal_nil _ Hnf1).
      match goal with |- context [crun ?s post] =>
        destruct (registered_completes post s rst (own_parts id pre) nf2 f) as [H1 H2]; auto end.
      { simpl. now rewrite aget_aset, Z.eqb_refl. }
      split; [assumption|]. rewrite H2, Hsp. now rewrite <- app_assoc.
  Qed.

  Lemma before_resp_split pre rst post :
    noresp id pre = true -> before_resp id (pre ++ CResp id rst :: post) = pre.
  Proof.
    induction pre as [|e pre IH]; simpl; intros H.
    - now rewrite Z.eqb_refl.
    - apply andb_prop in H as [H1 H2]. destruct (is_resp id e); [discriminate|]. now rewrite IH.
  Qed.

  Lemma filter_parts l : forall m,
    filter (mentions id) l = map CPart m -> own_parts id l = m /\ noresp id l = true.
  Proof.
    induction l as [|e l IH]; intros m H; simpl in *.
    - destruct m; [auto|discriminate].
    - destruct (mentions id e) eqn:Hm.
      + destruct m as [|p m]; [discriminate|]. simpl in H. injection H as E1 E2. subst e.
        destruct (IH m E2) as [H1 H2]. simpl in Hm. unfold own_parts in *. simpl. rewrite Hm, H1. simpl. auto.
      + destruct (IH m H) as [H1 H2]. destruct e as [j st|p]; simpl in *.
        * rewrite Hm. simpl. auto.
        * unfold own_parts in *. simpl. rewrite Hm. simpl. auto.
  Qed.
End ConsumerProofs.

Lemma merge_nil_l {A} (b c : list A) : Merge [] b c -> b = c.
Proof.
  intros H. remember [] as a eqn:Ea. induction H; auto; [discriminate|]. f_equal. auto.
Qed.
Lemma merge_single {A} (x : A) ys zs :
  Merge [x] ys zs -> exists a b, ys = a ++ b /\ zs = a ++ x :: b.
Proof.
  intros H. remember [x] as l eqn:El. revert El. induction H; intros El.
  - discriminate.
  - injection El as E1 E2. subst. apply merge_nil_l in H. subst. exists [], c. auto.
  - destruct (IHMerge El) as (a' & b' & E1 & E2). subst. exists (x0 :: a'), b'. auto.
Qed.
Section ConsumerMerge.
  Variable cap : nat.
  Variable kp : bool.
  Variable completing nonfinal : istate -> bool.
  Notation crun := (crun cap kp completing nonfinal).

  Theorem cons_merge id es s0 rst nf f :
    fresh id s0 ->
    Merge [CResp id rst] (map CPart (nf ++ [f])) (filter (mentions id) es) ->
    Forall (fun p => nonfinal (cp_st p) = true) nf -> nonfinal (cp_st f) = false ->
    (parts_before id es <= cap)%nat ->
    let s' := crun s0 es in
    aget id (c_pend s') = None /\
    done_of id s' =
      [if completing rst
       then mkCR rst rst true (if kp then own_parts id (before_resp id es) else [])
       else mkCR (cp_st f) rst false (nf ++ [f])].
  Proof.
    intros Hfr Hm Hnf Hf Hc.
    destruct (merge_single _ _ _ Hm) as (a & b & Eab & Ef).
    destruct (filter_split _ _ _ _ _ Ef) as (pre & post & Ees & Fa & Fb).
    apply map_eq_app in Eab as (m1 & m2 & Em & Ea & Eb). subst a b.
    destruct (filter_parts id pre m1 Fa) as [Ho1 Hn1].
    destruct (filter_parts id post m2 Fb) as [Ho2 Hn2].
    subst es. unfold parts_before in Hc. rewrite before_resp_split in * by assumption.
    apply cons_complete; auto. now rewrite Ho1, Ho2.
  Qed.
End ConsumerMerge.
