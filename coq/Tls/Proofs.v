(* Proofs about the TLS decision model (property C19). *)
From Coq Require Import List Bool.
From SDC Require Import Common.ListFacts Tls.Model.
Import ListNotations.

Lemma role_eqb_eq : forall a b, role_eqb a b = true <-> a = b.
Proof. intros [] []; simpl; split; intros; congruence. Qed.

Lemma ctx_eqb_eq : forall a b, ctx_eqb a b = true <-> a = b.
Proof. intros [] []; simpl; split; intros; congruence. Qed.

Lemma octx_is_eq : forall o c, octx_is o c = true <-> o = Some c.
Proof.
  intros [x|] c; simpl.
  - rewrite ctx_eqb_eq. split; intros; congruence.
  - split; intros; congruence.
Qed.

Lemma is_https_eq : forall s, is_https s = true <-> s = Https.
Proof. intros []; simpl; split; intros; congruence. Qed.

Lemma hs_ok_eq : forall o, hs_ok o = true <-> o = HsOk.
Proof. intros []; simpl; split; intros; congruence. Qed.

(* every clause of [secure_b] is a guarded one: "not this party's event, or ..." *)
Lemma guard_iff (g x : bool) (G X : Prop) :
  (g = true <-> G) -> (x = true <-> X) -> (negb g || x = true <-> (G -> X)).
Proof.
  intros HG HX. destruct g; simpl.
  - rewrite HX. split; [auto | intros H; apply H, HG; reflexivity].
  - split; [intros _ Hg; apply HG in Hg; discriminate | reflexivity].
Qed.

Lemma secure_b_iff : forall r e, secure_b r e = true <-> secure r e.
Proof.
  intros r e; destruct e as [k b a | r' c h | r' https c | r' ctls stls o | c ss]; simpl;
    apply guard_iff; try apply role_eqb_eq.
  - apply is_https_eq.
  - apply octx_is_eq.
  - now rewrite andb_true_iff, octx_is_eq.
  - rewrite andb_true_iff. apply and_iff_compat_l, guard_iff; [apply hs_ok_eq | reflexivity].
  - now rewrite andb_true_iff, ctx_eqb_eq.
Qed.

Lemma forallb_secure : forall r l, forallb (secure_b r) l = true <-> Forall (secure r) l.
Proof.
  intros r l. rewrite forallb_forall, Forall_forall.
  split; intros H x Hx; apply secure_b_iff; auto.
Qed.

(* a SOAP client that was given its party's client context *)
Lemma contact_secure : forall r h stls,
  forallb (secure_b r) (contact r (Some (client_ctx_of r)) h stls) = true.
Proof. intros [] h []; reflexivity. Qed.

Lemma pstep_secure : forall pc st i,
  p_tls pc = true -> forallb (secure_b RP) (snd (pstep pc st i)) = true.
Proof.
  intros [tls srv alt] st i H. simpl in H. subst tls.
  destruct i as [| | f | f | f | f n e | f | k stls | k stls]; cbn [pstep snd]; try reflexivity.
  - destruct srv; reflexivity.
  - destruct (nth_error st k); [apply (contact_secure RP) | reflexivity].
  - destruct (nth_error st k) as [s|]; cbn [snd]; [|reflexivity].
    rewrite forallb_app, (contact_secure RP). destruct stls; reflexivity.
Qed.

(* a predicate that holds for the events of every step holds for the events of every history *)
Lemma prun_all (Q : event -> bool) pc :
  (forall st i, forallb Q (snd (pstep pc st i)) = true) ->
  forall ins st, forallb Q (prun pc st ins) = true.
Proof.
  intros H ins; induction ins as [|i r IH]; intros st; simpl; [reflexivity|].
  specialize (H st i). destruct (pstep pc st i) as [st' ev]. cbn [snd] in H. now rewrite forallb_app, H, IH.
Qed.

Lemma provider_https_only : forall pc st ins,
  p_tls pc = true -> Forall (secure RP) (prun pc st ins).
Proof. intros pc st ins H. apply forallb_secure, prun_all. intros st' i. now apply pstep_secure. Qed.

(* the listening socket of an own server is wrapped with the server context *)
Lemma provider_own_server_tls : forall pc, p_tls pc = true -> p_srv pc = Own -> p_listen_tls pc = true.
Proof. intros pc H1 H2. unfold p_listen_tls, p_start, p_server_ctx. rewrite H1, H2. reflexivity. Qed.

(* invariant of an enforced consumer: is_ssl_connection stays True, the sink (when started) is https *)
Definition cinv (st : cstate) : Prop :=
  isc st = Some true /\ (forall s, sink st = Some s -> s = Https).

Definition sink_ok (fixed : bool) (cc : cconf) : Prop := fixed = true \/ c_srv cc <> Shared Http.

Lemma cinv_nosink run : cinv (mkcstate (Some true) run None).
Proof. split; [reflexivity | discriminate]. Qed.

Lemma start_sink_secure : forall fixed cc,
  sink_ok fixed cc ->
  forallb (secure_b RC) (fst (c_start_sink fixed cc (Some true))) = true /\
  (forall s, snd (c_start_sink fixed cc (Some true)) = inl s -> s = Https).
Proof.
  intros fixed cc Hok. unfold c_start_sink. destruct (c_srv cc) as [|[|]] eqn:E; cbn.
  - split; [reflexivity | now intros s [= <-]].
  - destruct Hok as [->|Hn]; [|contradiction]. split; [reflexivity | discriminate].
  - rewrite andb_false_r. split; [reflexivity | now intros s [= <-]].
Qed.

Lemma c_start_secure : forall fixed cc x stls hosted,
  sink_ok fixed cc ->
  cinv (fst (fst (c_start fixed cc (Some true) x stls hosted))) /\
  forallb (secure_b RC) (snd (fst (c_start fixed cc (Some true) x stls hosted))) = true.
Proof.
  intros fixed cc x stls hosted Hok. unfold c_start.
  destruct stls; simpl; [|split; [apply cinv_nosink | reflexivity]].
  destruct (start_sink_secure fixed cc Hok) as [Hev Hs].
  destruct (c_start_sink fixed cc (Some true)) as [ev3 [sc|e]]; cbn [fst snd] in *.
  all: split; [|cbn [forallb]; rewrite forallb_app, Hev, forallb_flat_map by (intros a _; apply (contact_secure RC)); reflexivity].
  - split; [reflexivity | intros s [= <-]; now apply Hs].
  - apply cinv_nosink.
Qed.

Lemma cstep_secure : forall fixed cc st i,
  sink_ok fixed cc -> cinv st ->
  cinv (fst (fst (cstep fixed cc st i))) /\ forallb (secure_b RC) (snd (fst (cstep fixed cc st i))) = true.
Proof.
  intros fixed cc [i0 run sk] i Hok Hinv. pose proof Hinv as [Hi Hs]. simpl in Hi, Hs. subst i0.
  destruct i as [x stls hosted | a stls | a stls | a stls | | x stls hosted]; cbn [cstep isc running sink c_stop].
  2,4: destruct run; (split; [exact Hinv|]); [apply (contact_secure RC) | reflexivity].
  - destruct run; [now split | now apply c_start_secure].
  - destruct run; [|now split]. destruct sk as [sc|]; [|now split]. split; [exact Hinv|]. cbn [fst snd].
    rewrite (Hs sc eq_refl). destruct stls; reflexivity.
  - split; [apply cinv_nosink | reflexivity].
  - now apply c_start_secure.
Qed.

(* an invariant that every step keeps, and a predicate that holds for the events of every step from a
   state with the invariant, hold after / for the events of every history *)
Lemma crun_all (Q : event -> bool) (I : cstate -> Prop) fixed cc :
  (forall st i, I st -> I (fst (fst (cstep fixed cc st i))) /\
                        forallb Q (snd (fst (cstep fixed cc st i))) = true) ->
  forall ins st, I st -> I (cfinal fixed cc st ins) /\ forallb Q (crun fixed cc st ins) = true.
Proof.
  intros H ins; induction ins as [|i r IH]; intros st Hi; simpl; [now split|].
  destruct (H st i Hi) as [Hi' Hev]. destruct (cstep fixed cc st i) as [[st' ev] err]. cbn [fst snd] in *.
  destruct (IH st' Hi') as [If Hr]. split; [exact If | now rewrite forallb_app, Hev, Hr].
Qed.

Lemma consumer_enforced : forall fixed cc ins,
  sink_ok fixed cc ->
  cinv (cfinal fixed cc (c_init (Some true)) ins) /\
  forallb (secure_b RC) (crun fixed cc (c_init (Some true)) ins) = true.
Proof. intros fixed cc ins Hok. apply crun_all; [intros st j; now apply cstep_secure | apply cinv_nosink]. Qed.

(* force_ssl_connect=True with a container: the constructor sets is_ssl_connection = True *)
Lemma c_ctor_enforced : forall cc i, c_mode cc = CEnforced -> c_ctor (c_mode cc) = Some i -> i = Some true.
Proof. intros cc i Hm Hc. rewrite Hm in Hc. now injection Hc. Qed.

(* [check_C19_provider] / [check_C19_consumer] of Tls/Model.v decide the statements of C19 *)
Lemma check_C19_provider_iff : forall pc ins,
  check_C19_provider pc ins = true <-> Forall (secure RP) (prun pc [] ins).
Proof. intros. apply forallb_secure. Qed.

Lemma check_C19_consumer_iff : forall fixed cc ins i,
  c_ctor (c_mode cc) = Some i ->
  (check_C19_consumer fixed cc ins = true <-> Forall (secure RC) (crun fixed cc (c_init i) ins)).
Proof. intros fixed cc ins i H. unfold check_C19_consumer. rewrite H. apply forallb_secure. Qed.

(* events of one party are not judged when the other party's statement is evaluated *)
Lemma by_role_other_secure : forall r r' e, r <> r' -> by_role r e = true -> secure_b r' e = true.
Proof.
  intros r r' e Hn H.
  assert (F : forall x, role_eqb x r = true -> role_eqb x r' = false).
  { intros x Hx. apply role_eqb_eq in Hx; subst. destruct r, r'; try reflexivity; exfalso; apply Hn; reflexivity. }
  destruct e; simpl in *; rewrite (F _ H); reflexivity.
Qed.

Lemma contact_by_role : forall r ctx h stls, forallb (by_role r) (contact r ctx h stls) = true.
Proof. intros [] [c|] h stls; reflexivity. Qed.

Lemma pstep_by_role : forall pc st i, forallb (by_role RP) (snd (pstep pc st i)) = true.
Proof.
  intros pc st i. destruct i as [| | f | f | f | f n e | f | k stls | k stls]; cbn [pstep snd]; try reflexivity.
  - rewrite forallb_app. unfold p_start, p_server_ctx.
    destruct (p_srv pc); [destruct (p_tls pc)|]; reflexivity.
  - destruct (nth_error st k); cbn [snd]; [apply contact_by_role | reflexivity].
  - destruct (nth_error st k); cbn [snd]; [|reflexivity].
    rewrite forallb_app, contact_by_role. destruct (handshake _ _); reflexivity.
Qed.

Lemma c_connect_by_role : forall i h stls, forallb (by_role RC) (fst (c_connect i h stls)) = true.
Proof.
  intros [b|] h stls; unfold c_connect.
  - cbn [fst]. apply contact_by_role.
  - destruct (handshake true stls); cbn [fst]; try apply contact_by_role.
Qed.

Lemma c_start_sink_by_role : forall fixed cc i, forallb (by_role RC) (fst (c_start_sink fixed cc i)) = true.
Proof.
  intros fixed cc i. unfold c_start_sink. destruct (c_srv cc) as [|s].
  - destruct (isc_true i); reflexivity.
  - destruct (fixed && isc_true i && negb (is_https s)); reflexivity.
Qed.

Lemma c_start_by_role : forall fixed cc i x stls hosted,
  forallb (by_role RC) (snd (fst (c_start fixed cc i x stls hosted))) = true.
Proof.
  intros fixed cc i x stls hosted. unfold c_start.
  pose proof (c_connect_by_role i (a_host x) stls) as H1.
  destruct (c_connect i (a_host x) stls) as [ev1 [i'|e]]; cbn [fst snd] in *; [|exact H1].
  pose proof (c_start_sink_by_role fixed cc i') as H3.
  destruct (c_start_sink fixed cc i') as [ev3 [sc|e]]; cbn [fst snd] in *;
    rewrite !forallb_app, H1, H3, forallb_flat_map by (intros a _; apply contact_by_role); reflexivity.
Qed.

Lemma cstep_by_role : forall fixed cc st i,
  forallb (by_role RC) (snd (fst (cstep fixed cc st i))) = true.
Proof.
  intros fixed cc st i. destruct i as [x stls hosted | a stls | a stls | a stls | | x stls hosted]; cbn [cstep].
  - destruct (running st); [reflexivity | apply c_start_by_role].
  - destruct (running st); cbn [fst snd]; [apply contact_by_role | reflexivity].
  - destruct (running st); [|reflexivity]. destruct (sink st); [|reflexivity]. cbn [fst snd].
    rewrite forallb_app, contact_by_role. destruct (handshake _ _); reflexivity.
  - destruct (running st); cbn [fst snd]; [apply contact_by_role | reflexivity].
  - reflexivity.
  - apply c_start_by_role.
Qed.

(* the scenario runner accumulates with fold_left what [prun] / [crun] and [cfinal] compute by recursion, so
   [prun_all] / [crun_all] speak of it as well *)
Lemma pfold_prun pc : forall l st ev, snd (pfold pc l (st, ev)) = ev ++ prun pc st l.
Proof.
  induction l as [|i l IH]; intros st ev; [symmetry; apply app_nil_r|].
  unfold pfold in *. cbn [fold_left prun]. destruct (pstep pc st i) as [st' e]. now rewrite IH, app_assoc.
Qed.

Lemma cfold_crun fixed cc : forall l st ev,
  cfold fixed cc l (st, ev) = (cfinal fixed cc st l, ev ++ crun fixed cc st l).
Proof.
  induction l as [|i l IH]; intros st ev; [cbn; now rewrite app_nil_r|].
  unfold cfold in *. cbn [fold_left crun cfinal]. destruct (cstep fixed cc st i) as [[st' e] err].
  now rewrite IH, app_assoc.
Qed.

Lemma pfold_all : forall (Q : event -> bool) pc,
  (forall st i, forallb Q (snd (pstep pc st i)) = true) ->
  forall l st, forallb Q (snd (pfold pc l (st, []))) = true.
Proof. intros Q pc H l st. rewrite pfold_prun. now apply prun_all. Qed.

Lemma cfold_all : forall (Q : event -> bool) (I : cstate -> Prop) fixed cc,
  (forall st i, I st -> I (fst (fst (cstep fixed cc st i))) /\
                        forallb Q (snd (fst (cstep fixed cc st i))) = true) ->
  forall l st, I st ->
    I (fst (cfold fixed cc l (st, []))) /\ forallb Q (snd (cfold fixed cc l (st, []))) = true.
Proof. intros Q I fixed cc H l st Hi. rewrite cfold_crun. now apply crun_all. Qed.

Section Scenario.
  Variables (Q : event -> bool) (I : cstate -> Prop) (c : scase).
  Hypothesis HP : forall st i, forallb Q (snd (pstep (s_pc c) st i)) = true.
  Hypothesis HC : forall st i, I st ->
    I (fst (fst (cstep (s_fixed c) (s_cc c) st i))) /\
    forallb Q (snd (fst (cstep (s_fixed c) (s_cc c) st i))) = true.

  (* outcome of one phase of the scenario: the consumer state keeps the invariant, the events are fine *)
  Definition res_ok (r : sys * list event) : Prop := I (snd (fst r)) /\ forallb Q (snd r) = true.

  Lemma res_ok_nil s : I (snd s) -> res_ok (s, []).
  Proof. intros Hi. now split. Qed.

  Lemma both_all : forall s pi ci, I (snd s) -> res_ok (both (s_pc c) (s_fixed c) (s_cc c) s pi ci).
  Proof.
    intros s pi ci Hi. unfold both, res_ok. cbn [fst snd].
    destruct (cfold_all Q I _ _ HC ci (snd s) Hi) as [Hi' Hc].
    split; [exact Hi'|]. rewrite forallb_app, Hc. apply pfold_all, HP.
  Qed.

  Lemma op_step_all : forall s ptls o, I (snd s) -> res_ok (op_step c s ptls o).
  Proof. intros s ptls o Hi. unfold op_step. destruct o; now (apply both_all || apply res_ok_nil). Qed.

  Lemma start_step_all : forall again s ptls, I (snd s) -> res_ok (fst (start_step c again s ptls)).
  Proof.
    intros again s ptls Hi. unfold start_step.
    set (inp := if again then CRestart _ _ _ else CStart _ _ _).
    destruct (HC (snd s) inp Hi) as [Hi1 H1].
    destruct (cstep (s_fixed c) (s_cc c) (snd s) inp) as [[cs1 ev1] err]. cbn [fst snd] in Hi1, H1.
    set (p1 := if match err with Some ESsl | Some ENotConnected => false | _ => true end
               then pfold (s_pc c) _ (fst s, []) else (fst s, [])).
    assert (Hp1 : forallb Q (snd p1) = true).
    { unfold p1. destruct err as [[]|]; try reflexivity; apply pfold_all, HP. }
    set (r2 := if running cs1 then op_step c (fst p1, cs1) ptls OResubscribe else ((fst p1, cs1), [])).
    assert (Hr2 : res_ok r2) by (unfold r2; destruct (running cs1); now (apply op_step_all || apply res_ok_nil)).
    destruct Hr2 as [Hi2 H2]. split; cbn [fst snd]; [exact Hi2|].
    rewrite !forallb_app, H1, Hp1, H2. reflexivity.
  Qed.

  Definition acc_ok (a : sacc) : Prop := I (snd (fst (fst a))) /\ forallb Q (fst (snd a)) = true.

  Lemma acc_ok_app s ptls evs codes r ptls' codes' :
    acc_ok ((s, ptls), (evs, codes)) -> res_ok r -> acc_ok ((fst r, ptls'), (evs ++ snd r, codes')).
  Proof. intros [_ Hev] [Hi He]. split; cbn [fst snd] in *; [exact Hi | now rewrite forallb_app, Hev]. Qed.

  Lemma sys_step_all : forall a o, acc_ok a -> acc_ok (sys_step c a o).
  Proof.
    intros [[s ptls] [evs codes]] o Ha. pose proof Ha as [Hi _]. cbn [fst snd] in Hi. unfold sys_step.
    destruct o;
      [destruct (running (snd s)); [now apply (acc_ok_app _ _ _ _ _ _ _ Ha), op_step_all | exact Ha] .. | | |].
    - (* OStart *)
      destruct (running (snd s)); [exact Ha|].
      pose proof (start_step_all false s ptls Hi) as H.
      destruct (start_step c false s ptls) as [[s' ev] code]. exact (acc_ok_app _ _ _ _ _ _ _ Ha H).
    - (* ORestart: stop_all with unsubscribe, then start_all *)
      set (r := if running (snd s) then op_step c s ptls OUnsubscribe else (s, [])).
      assert (Hr : res_ok r) by (unfold r; destruct (running (snd s)); now (apply op_step_all || apply res_ok_nil)).
      destruct Hr as [Hir Her].
      destruct (start_step_all true (fst r) ptls Hir) as [Hi' He].
      destruct (start_step c true (fst r) ptls) as [[s' ev] code]. cbn [fst snd] in *.
      apply (acc_ok_app _ _ _ _ (s', snd r ++ ev) _ _ Ha). split; cbn [fst snd]; [exact Hi' | now rewrite forallb_app, Her].
    - (* OPeerFlip *) exact Ha.
  Qed.

  Lemma run_events_all :
    (forall i0, (match s_x c with XBad => None | _ => c_ctor (c_mode (s_cc c)) end) = Some i0 -> I (c_init i0)) ->
    forallb Q (snd (run_events c)) = true.
  Proof.
    intros Hinit. unfold run_events.
    pose proof (pfold_all Q _ HP [PStart; PPublish] []) as H0.
    destruct (match s_x c with XBad => None | _ => c_ctor (c_mode (s_cc c)) end) as [i0|]; [|exact H0].
    specialize (Hinit i0 eq_refl).
    set (p0 := pfold (s_pc c) [PStart; PPublish] ([], [])) in *.
    set (r3 := sfold c (OStart :: s_ops c) (fst p0, c_init i0, p_listen_tls (s_pc c), (snd p0, []))).
    assert (Hr3 : acc_ok r3) by (apply (fold_inv acc_ok); [exact sys_step_all | split; [exact Hinit | exact H0]]).
    destruct Hr3 as [Hi3 H3]. clearbody r3.
    cbn [snd]. rewrite forallb_app, H3. cbn [andb].
    destruct (running (snd (fst (fst r3))) && s_provider_first c); [apply both_all; exact Hi3|].
    destruct (running (snd (fst (fst r3)))); [apply both_all; exact Hi3 | reflexivity].
  Qed.
End Scenario.

(* the scenario that is compared with the real provider and consumer: its events respect C19 for an enforced
   consumer (for a TLS provider: Props/C19.v) *)
Lemma scenario_consumer_secure : forall c,
  c_mode (s_cc c) = CEnforced -> sink_ok (s_fixed c) (s_cc c) -> Forall (secure RC) (snd (run_events c)).
Proof.
  intros c Hm Hok. apply forallb_secure.
  apply (run_events_all (secure_b RC) cinv c).
  - intros st i.
    apply (forallb_impl (by_role RP)); [intros e; apply by_role_other_secure; discriminate | apply pstep_by_role].
  - intros st i Hinv. now apply cstep_secure.
  - intros i0 H. rewrite Hm in H. destruct (s_x c); inversion H; apply cinv_nosink.
Qed.

Lemma requires_peer_cert_b_iff : forall c, requires_peer_cert_b c = true <-> requires_peer_cert c.
Proof.
  intros c. unfold requires_peer_cert_b, requires_peer_cert.
  destruct (verify c); split; intros H; try discriminate; try (destruct H; discriminate); auto.
  destruct H; assumption.
Qed.

(* the whole (finite) space of arguments (3 CA cases x 3 cyphers cases x password fits or not = 18): a named CA
   file gives verifying contexts or an error, a missing file always an error; the client context never checks the
   host name; without a CA file the server context lets anonymous clients in *)
Definition all_ctx_args : list (cafile * cyfile * bool) :=
  flat_map (fun ca => flat_map (fun cy => [(ca, cy, true); (ca, cy, false)]) [CyNone; CyGiven; CyMissing])
           [CaNone; CaGiven; CaMissing].

Definition ctx_args_ok (p : cafile * cyfile * bool) : bool :=
  let '(ca, cy, pw) := p in
  match mk_ssl_contexts ca cy pw, ca with
  | CtxOk _ _, CaMissing => false
  | CtxOk c s, CaGiven => requires_peer_cert_b c && requires_peer_cert_b s && negb (check_hostname c)
                          && negb (accepts_anonymous_client s)
  | CtxOk c s, CaNone => negb (requires_peer_cert_b c) && accepts_anonymous_client s && negb (check_hostname c)
  | CtxNotFound, _ => match ca, cy with CaMissing, _ | _, CyMissing => true | _, _ => false end
  | CtxSslError, _ => negb pw
  end.

Lemma ctx_sweep : forallb ctx_args_ok all_ctx_args = true.
Proof. vm_compute. reflexivity. Qed.
