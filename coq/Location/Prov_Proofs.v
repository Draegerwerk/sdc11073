(* update_from_sdc_location followed by mk_scopes (Location/Prov.v) publishes the scope Location/Proofs.v reasons about
   (published_of), also with further identifications before and after the fallback one. *)
From Coq Require Import List.
From SDC Require Import Location.Quote Location.Loc Location.Proofs Location.Prov.
Import ListNotations.
Open Scope N_scope.

(* the named-field copy followed by the named-field read is the identity on six elements *)
Lemma detail_vals_assign : forall d l, length (l_vals l) = 6%nat -> detail_vals (assign_detail d l) = l_vals l.
Proof.
  intros d [r vals] H. unfold detail_vals, assign_detail, attr. simpl in *.
  do 6 (destruct vals as [|? vals]; [simpl in H; discriminate|]).
  destruct vals; [reflexivity|simpl in H; discriminate].
Qed.

Section ProvProofs.
  Variable K : consts.
  Hypothesis HK : consts_ok K = true.

  Lemma wf_len6 : forall l, wf_loc K l -> length (l_vals l) = 6%nat.
  Proof. intros l [H _]. destruct (consts_inv K HK) as (_ & _ & H6 & _). congruence. Qed.

  (* update_from_sdc_location does not depend on the state it is applied to: LocationDetail present or
     None, whatever Identifications were there *)
  Lemma update_independent : forall st st' l, update_from_loc K st l = update_from_loc K st' l.
  Proof. reflexivity. Qed.

  (* what a successful update leaves: the fallback identifier alone and every detail field taken from l; and such
     an l is published *)
  Lemma update_from_loc_inv : forall st l st', length (l_vals l) = 6%nat -> update_from_loc K st l = Ret st' ->
    exists d, st' = mkPState [loc_ident K l] (Some d) /\ detail_vals d = l_vals l /\
              published_of K l = Some (published_scope K (mkState [loc_ident K l] (l_vals l)) (loc_ident K l)).
  Proof.
    intros st l st' H6 H. unfold update_from_loc in H. rewrite published_of_eq.
    destruct (bytes_eqb (loc_extension l) slash5); [discriminate|]. injection H as <-.
    eexists. split; [reflexivity|]. split; [now apply detail_vals_assign|reflexivity].
  Qed.

  Theorem provider_path : forall st l st', length (l_vals l) = 6%nat ->
    update_from_loc K st l = Ret st' ->
    exists s, published_of K l = Some s /\ mk_loc_scopes K st' = Ret [s] /\
              exists d, p_detail st' = Some d /\ detail_vals d = l_vals l.
  Proof.
    intros st l st' H6 H. destruct (update_from_loc_inv st l st' H6 H) as (d & -> & Hd & Hp).
    eexists. split; [exact Hp|]. split; [|eexists; split; [reflexivity|exact Hd]].
    unfold mk_loc_scopes. cbn [p_idents p_detail]. now rewrite Hd.
  Qed.

  (* additional identifications before / after the fallback identifier: one more scope each, the
     location's own scope stays in the list at the corresponding position *)
  Theorem provider_extra_idents : forall st l st' pre post, length (l_vals l) = 6%nat ->
    update_from_loc K st l = Ret st' ->
    exists s o1 o2, published_of K l = Some s /\ length o1 = length pre /\ length o2 = length post /\
      mk_loc_scopes K (mkPState (pre ++ p_idents st' ++ post) (p_detail st')) = Ret (o1 ++ s :: o2).
  Proof.
    intros st l st' pre post H6 H. destruct (update_from_loc_inv st l st' H6 H) as (d & -> & Hd & Hp).
    unfold mk_loc_scopes. cbn [p_idents p_detail]. rewrite Hd.
    destruct (pre ++ [loc_ident K l] ++ post) eqn:Ei; [destruct pre; discriminate|]. rewrite <- Ei.
    unfold published_scopes. cbn [s_idents]. rewrite !map_app. cbn [map].
    eexists _, _, _. split; [exact Hp|]. split; [|split; [|reflexivity]]; now rewrite map_length.
  Qed.
End ProvProofs.
