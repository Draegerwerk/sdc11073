(* Proofs about the urllib.parse model (Location/Quote.v) and the location model (Location/Loc.v).  urlsplit_assembled
   and the lemmas around it are stated with the character classes and the opt_* helpers of Wsd/Uri.v, whose rendering
   of URI records (Wsd/Match_Proofs.v) is their other user. *)
From Coq Require Import List NArith PeanoNat Bool Lia ZifyBool.
From SDC Require Import Common.ListFacts.
From SDC Require Import Location.Quote Location.Loc Wsd.Uri.
Import ListNotations.
Open Scope N_scope.
Arguments N.eqb : simpl never.

Lemma bytes_eqb_refl : forall a, bytes_eqb a a = true.
Proof. induction a; simpl; auto. rewrite N.eqb_refl; auto. Qed.

Lemma bytes_eqb_eq : forall a b, bytes_eqb a b = true <-> a = b.
Proof.
  induction a as [|x a IH]; intros [|y b]; simpl; split; intros H; try discriminate; auto.
  - apply andb_prop in H as [H1 H2]. apply N.eqb_eq in H1. apply IH in H2. congruence.
  - inversion H; subst. rewrite N.eqb_refl. simpl. apply bytes_eqb_refl.
Qed.

Lemma bytes_eqb_neq : forall a b, bytes_eqb a b = false <-> a <> b.
Proof. intros a b. rewrite <- bytes_eqb_eq. symmetry. apply not_true_iff_false. Qed.

Lemma mem_app : forall c a b, mem c (a ++ b) = mem c a || mem c b.
Proof. intros. unfold mem. apply existsb_app. Qed.

Lemma mem_of_In : forall c s, In c s -> mem c s = true.
Proof. intros c s H. apply existsb_exists. exists c. split; [assumption|apply N.eqb_refl]. Qed.

Lemma mem_false_forall : forall (P : N -> bool) c s, forallb P s = true -> P c = false -> mem c s = false.
Proof.
  intros P c s H Hc. apply existsb_false. intros x Hx. apply N.eqb_neq. intros <-.
  rewrite forallb_forall in H. rewrite (H _ Hx) in Hc. discriminate Hc.
Qed.

Lemma split1_app : forall sep a b, mem sep a = false -> split1 sep (a ++ sep :: b) = Some (a, b).
Proof.
  intros sep a b. induction a as [|x a IH]; simpl; intros H.
  - now rewrite N.eqb_refl.
  - apply orb_false_elim in H as [H1 H2]. rewrite N.eqb_sym, H1, IH; auto.
Qed.

Lemma split1_none : forall sep a, mem sep a = false -> split1 sep a = None.
Proof.
  intros sep a. induction a as [|x a IH]; simpl; intros H; auto.
  apply orb_false_elim in H as [H1 H2]. rewrite N.eqb_sym, H1, IH; auto.
Qed.

Lemma split_on_nonnil : forall sep s, split_on sep s <> [].
Proof. intros sep s. destruct s; simpl; [congruence|]. destruct (_ =? _); [congruence|]. destruct (split_on sep s); congruence. Qed.

Lemma split_on_app : forall sep a b, mem sep a = false -> split_on sep (a ++ sep :: b) = a :: split_on sep b.
Proof.
  intros sep a b. induction a as [|x a IH]; simpl; intros H.
  - now rewrite N.eqb_refl.
  - apply orb_false_elim in H as [H1 H2]. rewrite N.eqb_sym, H1, IH; auto.
Qed.

Lemma split_on_none : forall sep a, mem sep a = false -> split_on sep a = [a].
Proof.
  intros sep a. induction a as [|x a IH]; simpl; intros H; auto.
  apply orb_false_elim in H as [H1 H2]. rewrite N.eqb_sym, H1, IH; auto.
Qed.

Lemma join_cons2 : forall sep p q r, join sep (p :: q :: r) = p ++ sep ++ join sep (q :: r).
Proof. reflexivity. Qed.

Lemma split_on_join : forall sep parts,
  parts <> [] -> Forall (fun p => mem sep p = false) parts -> split_on sep (join [sep] parts) = parts.
Proof.
  intros sep parts. induction parts as [|p r IH]; intros Hn Hf; [congruence|].
  inversion Hf; subst. destruct r as [|q r].
  - simpl. now apply split_on_none.
  - rewrite join_cons2. simpl app. rewrite split_on_app by auto. f_equal. apply IH; [congruence|auto].
Qed.

Lemma forallb_join : forall (P : N -> bool) sep parts,
  forallb P sep = true -> Forall (fun p => forallb P p = true) parts -> forallb P (join sep parts) = true.
Proof.
  intros P sep parts Hs. induction parts as [|p r IH]; intros Hf; simpl; auto.
  inversion Hf; subst. destruct r; auto.
  rewrite !forallb_app, H1, Hs. simpl. apply IH; auto.
Qed.

(* '%02X': a nibble is printed as one of '0'..'9' or 'A'..'F' *)
Lemma hexdigit_cases : forall n, (n < 10 /\ hexdigit n = 48 + n) \/ (10 <= n /\ hexdigit n = 55 + n).
Proof. intros n. unfold hexdigit. destruct (N.ltb_spec n 10); auto. Qed.

Lemma hexval_hexdigit : forall n, n < 16 -> hexval (hexdigit n) = Some n.
Proof.
  intros n H. unfold hexval, in_range. destruct (hexdigit_cases n) as [[R ->]|[R ->]].
  - replace ((48 <=? 48 + n) && (48 + n <=? 57)) with true by lia. f_equal. lia.
  - replace ((48 <=? 55 + n) && (55 + n <=? 57)) with false by lia.
    replace ((65 <=? 55 + n) && (55 + n <=? 70)) with true by lia. f_equal. lia.
Qed.

(* value characters: what quote(.., safe='') and quote_plus(.., safe='') can emit *)
Definition pchar (c : N) : bool := always_safe c || (c =? 37) || (c =? 43).
Definition path_char (c : N) : bool := plain_char c || (c =? 47).

Lemma pchar_plain : forall c, pchar c = true -> plain_char c = true.
Proof. intros c. unfold pchar, plain_char, always_safe, is_alpha, is_upper, is_lower, is_digit, in_range. lia. Qed.

Lemma pchar_path : forall s, forallb pchar s = true -> forallb path_char s = true.
Proof. intros s. apply forallb_impl. intros c H. unfold path_char. now rewrite pchar_plain. Qed.

Lemma pchar_query : forall s, forallb pchar s = true -> forallb query_char s = true.
Proof. intros s. apply forallb_impl. intros c H. apply pchar_plain in H. unfold plain_char in H. unfold query_char. lia. Qed.

Lemma hexdigit_safe : forall n, n < 16 -> always_safe (hexdigit n) = true.
Proof.
  intros n H. unfold always_safe, is_alpha, is_upper, is_digit, in_range.
  destruct (hexdigit_cases n) as [[R ->]|[R ->]].
  - replace ((48 <=? 48 + n) && (48 + n <=? 57)) with true by lia. now rewrite orb_true_r.
  - now replace ((65 <=? 55 + n) && (55 + n <=? 90)) with true by lia.
Qed.

Lemma always_safe_lt : forall c, always_safe c = true -> c < 128.
Proof. intros c. unfold always_safe, is_alpha, is_upper, is_lower, is_digit, in_range. lia. Qed.

(* none of '%' '+' ' ' '/' '&' '=' ':' '?' '#' *)
Lemma always_safe_not : forall c, always_safe c = true ->
  c <> 37 /\ c <> 43 /\ c <> 32 /\ c <> 47 /\ c <> 38 /\ c <> 61 /\ c <> 58 /\ c <> 63 /\ c <> 35.
Proof. intros c. unfold always_safe, is_alpha, is_upper, is_lower, is_digit, in_range. lia. Qed.

Lemma byte_div : forall c, is_byte c -> c / 16 < 16.
Proof. intros c H. unfold is_byte in H. apply N.div_lt_upper_bound; lia. Qed.
Lemma byte_mod : forall c, c mod 16 < 16.
Proof. intros c. apply N.mod_lt. lia. Qed.

Lemma unquote_quote_byte : forall safe c r,
  is_byte c -> mem 37 safe = false -> unquote (quote_byte safe c ++ r) = c :: unquote r.
Proof.
  intros safe c r Hb Hs. unfold quote_byte. destruct (is_safe safe c) eqn:E.
  - assert (c <> 37).
    { intros ->. unfold is_safe in E. rewrite Hs in E. vm_compute in E. discriminate. }
    simpl. destruct (N.eqb_spec c 37); [contradiction|reflexivity].
  - cbn [app unquote]. rewrite N.eqb_refl.
    rewrite (hexval_hexdigit _ (byte_div c Hb)), (hexval_hexdigit _ (byte_mod c)).
    f_equal. symmetry. apply N.div_mod'.
Qed.

Lemma unquote_quote_app : forall safe s t,
  is_bytes s -> mem 37 safe = false -> unquote (quote safe s ++ t) = s ++ unquote t.
Proof.
  intros safe s t Hs H37. induction Hs as [|c s Hc Hs IH]; simpl; auto.
  change (flat_map (quote_byte safe) s) with (quote safe s).
  rewrite <- app_assoc, unquote_quote_byte by auto. now rewrite IH.
Qed.

Lemma unquote_quote : forall safe s, is_bytes s -> mem 37 safe = false -> unquote (quote safe s) = s.
Proof.
  intros safe s Hs H. rewrite <- (app_nil_r (quote safe s)), unquote_quote_app by auto.
  simpl. apply app_nil_r.
Qed.

Lemma is_safe_nil : forall c, is_safe [] c = always_safe c.
Proof. intros c. unfold is_safe. simpl. now rewrite andb_false_r, orb_false_r. Qed.

(* the characters quote emits: those of _ALWAYS_SAFE, '%', and the safe characters of the input itself *)
Lemma quote_byte_chars : forall (P : N -> bool) safe c, is_byte c ->
  (forall x, always_safe x = true -> P x = true) -> P 37 = true -> (is_safe safe c = true -> P c = true) ->
  forallb P (quote_byte safe c) = true.
Proof.
  intros P safe c Hb Hsafe H37 Hc. unfold quote_byte. destruct (is_safe safe c); cbn [forallb].
  - now rewrite Hc.
  - now rewrite H37, (Hsafe _ (hexdigit_safe _ (byte_div c Hb))), (Hsafe _ (hexdigit_safe _ (byte_mod c))).
Qed.

Lemma quote_chars : forall (P : N -> bool) safe s, is_bytes s ->
  (forall x, always_safe x = true -> P x = true) -> P 37 = true ->
  (forall c, In c s -> is_safe safe c = true -> P c = true) ->
  forallb P (quote safe s) = true.
Proof.
  intros P safe s Hs Hsafe H37 Hc. apply forallb_flat_map. intros c Hi.
  apply quote_byte_chars; auto. eapply Forall_forall; eauto.
Qed.

Lemma pchar_safe : forall x, always_safe x = true -> pchar x = true.
Proof. intros x H. unfold pchar. now rewrite H. Qed.

Lemma quote_nil_iff : forall safe s, quote safe s = [] <-> s = [].
Proof.
  intros safe s. split; [|intros ->; reflexivity]. destruct s as [|c s]; auto. unfold quote. cbn [flat_map].
  unfold quote_byte. destruct (is_safe safe c); discriminate.
Qed.

(* quote(root) with the default safe='/' *)
Lemma quote_slash_path : forall s, is_bytes s -> forallb path_char (quote [47] s) = true.
Proof.
  intros s Hs. apply quote_chars; auto; unfold path_char.
  - intros x H. now rewrite (pchar_plain _ (pchar_safe _ H)).
  - intros c _ H. unfold is_safe, mem in H. simpl in H. rewrite orb_false_r in H.
    apply orb_prop in H as [H|H]; [now rewrite (pchar_plain _ (pchar_safe _ H))|].
    apply andb_prop in H as [_ H]. now rewrite H, orb_true_r.
Qed.

Lemma quote_slash_no47 : forall s, is_bytes s -> mem 47 s = false -> mem 47 (quote [47] s) = false.
Proof.
  intros s Hs H. apply (mem_false_forall (fun x => negb (x =? 47))); [|reflexivity].
  apply quote_chars; auto.
  - intros x Hx. destruct (N.eqb_spec x 47) as [->|]; [discriminate Hx|reflexivity].
  - intros c Hi _. destruct (N.eqb_spec c 47) as [->|]; [|reflexivity]. apply mem_of_In in Hi. congruence.
Qed.

Definition qp_byte (c : N) : bytes := if c =? 32 then [43] else quote_byte [] c.

Lemma quote_byte_sp : forall c, quote_byte ([] ++ [32]) c = if c =? 32 then [32] else quote_byte [] c.
Proof.
  intros c. unfold quote_byte, is_safe, mem. simpl. destruct (N.eqb_spec c 32); subst; [reflexivity|].
  now rewrite !orb_false_r, andb_false_r.
Qed.

Lemma quote_byte_no : forall c x, is_byte c -> always_safe x = false -> x <> 37 -> mem x (quote_byte [] c) = false.
Proof.
  intros c x Hb Hx H37. apply (mem_false_forall (fun y => always_safe y || (y =? 37))).
  - apply quote_byte_chars; auto; [intros y|rewrite is_safe_nil]; intros ->; reflexivity.
  - rewrite Hx. now apply N.eqb_neq.
Qed.

Lemma replace_byte_id : forall a b s, mem a s = false -> replace_byte a b s = s.
Proof.
  intros a b s. induction s as [|c s IH]; simpl; intros H; auto.
  apply orb_false_elim in H as [H1 H2]. rewrite N.eqb_sym, H1, IH; auto.
Qed.

Lemma replace_byte_app : forall a b s t, replace_byte a b (s ++ t) = replace_byte a b s ++ replace_byte a b t.
Proof. intros. apply map_app. Qed.

Lemma replace_byte_flat_map : forall a b (f : N -> bytes) s,
  replace_byte a b (flat_map f s) = flat_map (fun c => replace_byte a b (f c)) s.
Proof. intros a b f s. induction s; simpl; auto. now rewrite replace_byte_app, IHs. Qed.

Lemma quote_plus_char : forall s, is_bytes s -> quote_plus [] s = flat_map qp_byte s.
Proof.
  intros s Hs. unfold quote_plus. destruct (mem 32 s) eqn:E.
  - unfold quote. rewrite replace_byte_flat_map. apply flat_map_ext_in. intros c Hc.
    rewrite quote_byte_sp. unfold qp_byte. destruct (c =? 32); [reflexivity|].
    apply replace_byte_id. apply quote_byte_no; [eapply Forall_forall; eauto|reflexivity|lia].
  - apply flat_map_ext_in. intros c Hc. unfold qp_byte.
    destruct (N.eqb_spec c 32) as [->|]; auto. apply mem_of_In in Hc. congruence.
Qed.

(* an encoder that works byte by byte, with characters of pchar, which qs_decode reads back *)
Definition enc_ok (enc : bytes -> bytes) : Prop :=
  forall v, is_bytes v -> forallb pchar (enc v) = true /\ qs_decode (enc v) = v /\ (enc v = [] <-> v = []).

Lemma enc_ok_flat_map : forall e : N -> bytes,
  (forall c, is_byte c -> forallb pchar (e c) = true /\ (forall r, qs_decode (e c ++ r) = c :: qs_decode r) /\ e c <> []) ->
  enc_ok (flat_map e).
Proof.
  intros e He v Hv. repeat split.
  - apply forallb_flat_map. intros c Hc. apply He. eapply Forall_forall; eauto.
  - induction Hv as [|c s Hc Hs IH]; [reflexivity|]. simpl. destruct (He c Hc) as (_ & D & _). now rewrite D, IH.
  - destruct Hv as [|c s Hc Hs]; [reflexivity|]. simpl. intros E. apply app_eq_nil in E as [E _]. now apply He in E.
  - intros ->. reflexivity.
Qed.

Lemma quote_byte_enc : forall c, is_byte c ->
  forallb pchar (quote_byte [] c) = true /\ (forall r, qs_decode (quote_byte [] c ++ r) = c :: qs_decode r) /\
  quote_byte [] c <> [].
Proof.
  intros c Hb. split; [|split].
  - apply quote_byte_chars; auto using pchar_safe. rewrite is_safe_nil. apply pchar_safe.
  - intros r. unfold qs_decode.
    rewrite replace_byte_app, replace_byte_id by (apply quote_byte_no; [assumption|reflexivity|lia]).
    now apply unquote_quote_byte.
  - unfold quote_byte. destruct (is_safe [] c); discriminate.
Qed.

Lemma enc_ok_quote : enc_ok (quote []).
Proof. exact (enc_ok_flat_map _ quote_byte_enc). Qed.

Lemma quote_pchar : forall s, is_bytes s -> forallb pchar (quote [] s) = true.
Proof. intros s Hs. apply enc_ok_quote, Hs. Qed.

Lemma enc_ok_quote_plus : enc_ok (quote_plus []).
Proof.
  intros v Hv. rewrite quote_plus_char by assumption. revert v Hv. apply enc_ok_flat_map.
  intros c Hb. unfold qp_byte. destruct (N.eqb_spec c 32) as [->|]; [repeat split; discriminate|].
  now apply quote_byte_enc.
Qed.

Lemma parse_qsl_alt : forall qs, parse_qsl qs = flat_map parse_field (split_on 38 qs).
Proof. destruct qs; reflexivity. Qed.

Lemma parse_field_alt : forall f, parse_field f =
  match split1 61 f with
  | None => []
  | Some (n, v) => if nonempty v then [(qs_decode n, qs_decode v)] else []
  end.
Proof. destruct f; reflexivity. Qed.

Lemma nonempty_false_iff : forall s, nonempty s = false <-> s = [].
Proof. destruct s; simpl; split; congruence. Qed.
Lemma nonempty_true : forall s, s <> [] -> nonempty s = true.
Proof. intros [|c s] H; [congruence|reflexivity]. Qed.

Lemma parse_field_enc : forall enc k v, enc_ok enc -> is_bytes k -> is_bytes v ->
  parse_field (enc k ++ 61 :: enc v) = if nonempty v then [(k, v)] else [].
Proof.
  intros enc k v He Hk Hv. destruct (He k Hk) as (Pk & Dk & _). destruct (He v Hv) as (Pv & Dv & Nv).
  rewrite parse_field_alt, split1_app by (eapply mem_false_forall; eauto).
  destruct (nonempty v) eqn:E.
  - destruct (nonempty (enc v)) eqn:E2.
    + now rewrite Dk, Dv.
    + apply nonempty_false_iff in E2. apply Nv in E2. subst. discriminate.
  - apply nonempty_false_iff in E. subst. assert (enc [] = []) as -> by (apply Nv; auto). reflexivity.
Qed.

Definition pairs_bytes (ps : list (bytes * bytes)) : Prop :=
  Forall (fun kv => is_bytes (fst kv) /\ is_bytes (snd kv)) ps.

Lemma field_no38 : forall enc k v, enc_ok enc -> is_bytes k -> is_bytes v -> mem 38 (enc k ++ 61 :: enc v) = false.
Proof.
  intros enc k v He Hk Hv. destruct (He k Hk) as (Pk & _). destruct (He v Hv) as (Pv & _).
  rewrite mem_app. simpl. rewrite (mem_false_forall pchar 38 _ Pk), (mem_false_forall pchar 38 _ Pv); reflexivity.
Qed.

Lemma parse_qsl_urlencode : forall enc ps, enc_ok enc -> pairs_bytes ps ->
  parse_qsl (urlencode enc ps) = filter (fun kv => nonempty (snd kv)) ps.
Proof.
  intros enc ps He Hp. rewrite parse_qsl_alt. unfold urlencode.
  destruct ps as [|p0 ps0]; [reflexivity|].
  rewrite split_on_join.
  - induction Hp as [|[k v] r [Hk Hv] Hr IH]; [reflexivity|].
    cbn [map flat_map filter fst snd]. rewrite parse_field_enc by auto. rewrite IH.
    destruct (nonempty v); reflexivity.
  - simpl. congruence.
  - apply Forall_map. eapply Forall_impl; [|exact Hp]. intros [k v] [Hk Hv]. simpl. now apply field_no38.
Qed.

Lemma urlencode_query : forall enc ps, enc_ok enc -> pairs_bytes ps -> forallb query_char (urlencode enc ps) = true.
Proof.
  intros enc ps He Hp. unfold urlencode. apply forallb_join; [reflexivity|].
  apply Forall_map. eapply Forall_impl; [|exact Hp]. intros [k v] [Hk Hv]. simpl.
  destruct (He k Hk) as (Pk & _). destruct (He v Hv) as (Pv & _).
  rewrite forallb_app. cbn [forallb]. now rewrite !pchar_query.
Qed.

(* '' counts as absent: scope_string leaves it out and parse_qsl (keep_blank_values=False) drops it *)
Definition norm (v : option bytes) : option bytes := match v with Some [] => None | x => x end.

Lemma dict_get_app : forall k a b,
  dict_get k (a ++ b) = match dict_get k b with Some x => Some x | None => dict_get k a end.
Proof.
  intros k a b. induction a as [|[k' v] a IH]; simpl.
  - destruct (dict_get k b); reflexivity.
  - rewrite IH. destruct (dict_get k b); reflexivity.
Qed.

Lemma dict_get_notin : forall k ps, (forall kv, In kv ps -> fst kv <> k) -> dict_get k ps = None.
Proof.
  intros k ps. induction ps as [|[k' v] r IH]; simpl; intros H; auto.
  rewrite IH by auto. assert (k' <> k) by (apply (H (k', v)); auto).
  destruct (bytes_eqb k k') eqn:E; auto. apply bytes_eqb_eq in E. congruence.
Qed.

Lemma present_keys : forall names vals kv, In kv (present names vals) -> In (fst kv) names.
Proof.
  induction names as [|n ns IH]; intros [|v vs] kv; simpl; try tauto.
  rewrite in_app_iff. intros [H|H].
  - destruct (val_or_empty v); simpl in H; [tauto|]. destruct H as [<-|[]]. auto.
  - right. eapply IH; eauto.
Qed.

Lemma nodupb_cons : forall n ns, nodupb (n :: ns) = true -> ~ In n ns /\ nodupb ns = true.
Proof.
  intros n ns H. simpl in H. apply andb_prop in H as [H1 H2]. split; auto.
  intros Hin. apply negb_true_iff in H1. assert (existsb (bytes_eqb n) ns = true); [|congruence].
  apply existsb_exists. exists n. split; auto. apply bytes_eqb_refl.
Qed.

Lemma dict_get_present : forall names vals, nodupb names = true -> length vals = length names ->
  map (fun n => dict_get n (present names vals)) names = map norm vals.
Proof.
  induction names as [|n ns IH]; intros [|v vs] Hn Hl; try discriminate; auto.
  apply nodupb_cons in Hn as [Hnot Hnd]. simpl in Hl. injection Hl as Hl.
  cbn [map present]. f_equal.
  - rewrite dict_get_app. rewrite dict_get_notin.
    + destruct v as [[|x xs]|]; simpl; auto. now rewrite bytes_eqb_refl.
    + intros kv Hin <-. apply Hnot. eapply present_keys; eauto.
  - rewrite <- IH by auto. apply map_ext_in. intros m Hm. rewrite dict_get_app.
    destruct (dict_get m (present ns vs)); auto.
    destruct (val_or_empty v); simpl; auto.
    destruct (bytes_eqb m n) eqn:E; auto. apply bytes_eqb_eq in E. subst. contradiction.
Qed.

Lemma present_of_state_dict : forall names vals,
  filter (fun kv => nonempty (snd kv)) (state_query_dict names vals) = present names vals.
Proof.
  induction names as [|n ns IH]; intros [|v vs]; simpl; auto.
  rewrite filter_app, IH. destruct v as [[|x xs]|]; reflexivity.
Qed.

Lemma present_filter_id : forall names vals,
  filter (fun kv => nonempty (snd kv)) (present names vals) = present names vals.
Proof.
  intros names vals. rewrite <- present_of_state_dict. apply filter_all_true. intros kv H. now apply filter_In in H.
Qed.

Definition opt_is_bytes (v : option bytes) : Prop := match v with Some x => is_bytes x | None => True end.

Lemma scheme_visible : forall c, scheme_char c = true -> frag_char c = true.
Proof. intros c. unfold scheme_char, frag_char, is_alpha, is_upper, is_lower, is_digit, in_range. lia. Qed.
Lemma auth_plain : forall c, auth_char c = true -> plain_char c = true.
Proof. intros c. unfold auth_char. lia. Qed.
Lemma path_visible : forall c, path_char c = true -> frag_char c = true.
Proof. intros c. unfold path_char, plain_char, frag_char. lia. Qed.
Lemma query_visible : forall c, query_char c = true -> frag_char c = true.
Proof. intros c. unfold query_char, frag_char. lia. Qed.

Lemma forallb_opt_pre : forall (p p' : N -> bool) c o,
  p c = true -> (forall x, p' x = true -> p x = true) -> opt_forall p' o = true -> forallb p (opt_pre c o) = true.
Proof. intros p p' c [x|] Hc Hp Ho; simpl; auto. rewrite Hc. simpl. eapply forallb_impl; eauto. Qed.

(* a text without control characters and spaces passes the two cleaning steps unchanged *)
Lemma clean_visible : forall url, forallb frag_char url = true -> remove_unsafe (lstrip_c0 url) = url.
Proof.
  intros url H. assert (lstrip_c0 url = url) as ->.
  { destruct url as [|c r]; [reflexivity|]. simpl in H. apply andb_prop in H as [H _]. simpl.
    unfold frag_char in H. replace (c <=? 32) with false by lia. reflexivity. }
  apply filter_all_true. rewrite forallb_forall in H. intros c Hc. apply H in Hc. unfold frag_char in Hc. lia.
Qed.

Lemma split_scheme_any : forall sch rest,
  match sch with c0 :: _ => is_alpha c0 | [] => false end = true -> forallb scheme_char sch = true ->
  split_scheme (sch ++ 58 :: rest) = (map lower sch, rest).
Proof.
  intros sch rest Ha Hsc. unfold split_scheme. rewrite split1_app by (eapply mem_false_forall; eauto).
  destruct sch; [discriminate|]. now rewrite Ha, Hsc.
Qed.

(* empty or absolute / empty or beginning with one of the characters that end an authority *)
Definition rooted (p : bytes) : bool := match p with [] => true | c :: _ => c =? 47 end.
Definition delim_start (s : bytes) : bool :=
  match s with [] => true | c :: _ => (c =? 47) || (c =? 63) || (c =? 35) end.

Lemma split_netloc_app : forall a tail,
  forallb plain_char a = true -> delim_start tail = true -> split_netloc (a ++ tail) = (a, tail).
Proof.
  intros a tail Ha Ht. induction a as [|x a IH]; simpl.
  - destruct tail as [|c r]; [reflexivity|]. simpl in *. now rewrite Ht.
  - simpl in Ha. apply andb_prop in Ha as [Hx Ha].
    replace ((x =? 47) || (x =? 63) || (x =? 35)) with false by (unfold plain_char in Hx; lia).
    now rewrite IH.
Qed.

Lemma rooted_delim_start : forall path q f,
  rooted path = true -> delim_start (path ++ opt_pre 63 q ++ opt_pre 35 f) = true.
Proof.
  intros [|c r] q f; simpl; [intros _|intros ->; reflexivity].
  destruct q; [reflexivity|]. destruct f; reflexivity.
Qed.

Lemma starts_with2_app_false : forall p t,
  starts_with2 47 47 p = false -> match t with c :: _ => negb (c =? 47) | [] => true end = true ->
  starts_with2 47 47 (p ++ t) = false.
Proof.
  intros [|x [|y p]] [|c r] Hp Ht; try exact Hp; try reflexivity; apply negb_true_iff in Ht; simpl.
  - destruct r; [reflexivity|]. now rewrite Ht.
  - rewrite Ht. apply andb_false_r.
Qed.

(* the authority step of urlsplit, on "//" authority followed by tail, or on tail alone *)
Lemma split_authority : forall auth tail,
  opt_forall auth_char auth = true ->
  match auth with Some _ => delim_start tail | None => negb (starts_with2 47 47 tail) end = true ->
  let url2 := match auth with Some a => 47 :: 47 :: a | None => [] end ++ tail in
  (if starts_with2 47 47 url2 then split_netloc (drop2 url2) else ([], url2)) = (opt_val auth, tail).
Proof.
  intros [a|] tail Ha Ht; cbn [app opt_val].
  - change (starts_with2 47 47 (47 :: 47 :: a ++ tail)) with true. cbn [drop2].
    apply split_netloc_app; auto. eapply forallb_impl; [|exact Ha]. apply auth_plain.
  - apply negb_true_iff in Ht. now rewrite Ht.
Qed.

Lemma authority_plain : forall auth, opt_forall auth_char auth = true ->
  mem 91 (opt_val auth) = false /\ mem 93 (opt_val auth) = false /\ is_ascii (opt_val auth) = true.
Proof.
  intros [a|] H; simpl in *; [|auto]. repeat split; try (eapply mem_false_forall; [exact H|reflexivity]).
  eapply forallb_impl; [|exact H]. intros c. unfold auth_char. lia.
Qed.

(* s.partition(c) on a text whose only possible c is the one opt_pre put there *)
Lemma split1_opt_pre : forall c a o, mem c a = false ->
  match split1 c (a ++ opt_pre c o) with Some x => x | None => (a ++ opt_pre c o, []) end = (a, opt_val o).
Proof.
  intros c a [x|] H; simpl.
  - now rewrite split1_app.
  - now rewrite app_nil_r, split1_none.
Qed.

(* scheme ":" ["//" authority] path ["?" query] ["#" fragment] is split into the parts it was assembled from;
   the unmodelled checks (bad) are never consulted *)
Theorem urlsplit_assembled : forall bad sch auth path q f,
  match sch with c0 :: _ => is_alpha c0 | [] => false end = true -> forallb scheme_char sch = true ->
  opt_forall auth_char auth = true -> forallb path_char path = true ->
  opt_forall query_char q = true -> opt_forall frag_char f = true ->
  match auth with Some _ => rooted path | None => negb (starts_with2 47 47 path) end = true ->
  urlsplit bad (sch ++ 58 :: match auth with Some a => 47 :: 47 :: a | None => [] end ++
                path ++ opt_pre 63 q ++ opt_pre 35 f) =
  SplitOk (map lower sch) (opt_val auth) path (opt_val q) (opt_val f).
Proof.
  intros bad sch auth path q f Ha Hsc Hau Hp Hq Hf Hshape. unfold urlsplit.
  rewrite clean_visible.
  2:{ rewrite forallb_app. cbn [forallb]. rewrite !forallb_app.
      rewrite (forallb_impl _ _ _ scheme_visible Hsc), (forallb_impl _ _ _ path_visible Hp).
      rewrite (forallb_opt_pre frag_char query_char), (forallb_opt_pre frag_char frag_char) by auto using query_visible.
      destruct auth as [a|]; [|reflexivity]. cbn [forallb]. simpl in Hau.
      rewrite (forallb_impl auth_char frag_char a); auto. intros c Hc. apply path_visible. unfold path_char.
      now rewrite auth_plain. }
  rewrite split_scheme_any by assumption.
  rewrite (split_authority auth _ Hau).
  2:{ destruct auth; [now apply rooted_delim_start|]. apply negb_true_iff. apply negb_true_iff in Hshape.
      apply starts_with2_app_false; auto. destruct q; [reflexivity|]. destruct f; reflexivity. }
  destruct (authority_plain auth Hau) as (-> & -> & ->). cbn [xorb andb negb].
  assert (M35 : mem 35 (path ++ opt_pre 63 q) = false).
  { rewrite mem_app, (mem_false_forall path_char 35 path) by auto. destruct q as [x|]; [|reflexivity].
    simpl in *. now rewrite (mem_false_forall query_char 35 x). }
  rewrite (app_assoc path), split1_opt_pre, split1_opt_pre by (auto; eapply mem_false_forall; eauto).
  reflexivity.
Qed.

(* the query component as urlsplit_assembled takes it: urlunparse writes no '?' for an empty query *)
Definition optq (q : bytes) : option bytes := match q with [] => None | _ => Some q end.

Lemma urlunparse_shape : forall sch path q, nonempty sch = true ->
  urlunparse_nonetloc sch path q = sch ++ 58 :: path ++ opt_pre 63 (optq q).
Proof.
  intros [|c s] path q H; [discriminate|]. unfold urlunparse_nonetloc. rewrite <- app_assoc.
  destruct q; reflexivity.
Qed.

Lemma scheme_ok_inv : forall sch, scheme_ok sch = true ->
  nonempty sch = true /\ match sch with c0 :: _ => is_alpha c0 | [] => false end = true /\
  forallb scheme_char sch = true /\ map lower sch = sch.
Proof.
  intros [|c0 s] H; [discriminate|]. unfold scheme_ok in H.
  apply andb_prop in H as [H H3]. apply andb_prop in H as [H1 H2].
  repeat split; auto. now apply bytes_eqb_eq.
Qed.

Lemma urlsplit_scope : forall bad sch path q,
  scheme_ok sch = true -> starts_with2 47 47 path = false ->
  forallb path_char path = true -> forallb query_char q = true ->
  urlsplit bad (urlunparse_nonetloc sch path q) = SplitOk sch [] path q [].
Proof.
  intros bad sch path q Hs Hp Hpath Hq.
  destruct (scheme_ok_inv _ Hs) as (Hn & Ha & Hsc & Hl).
  rewrite urlunparse_shape by assumption.
  pose proof (urlsplit_assembled bad sch None path (optq q) None Ha Hsc eq_refl Hpath) as U.
  cbn [opt_pre opt_val app] in U. rewrite app_nil_r, Hl in U. rewrite U.
  - destruct q; reflexivity.
  - destruct q; [reflexivity|exact Hq].
  - reflexivity.
  - now rewrite Hp.
Qed.

Lemma is_bytes_forallb : forall s, forallb is_byteb s = true -> is_bytes s.
Proof.
  intros s H. apply Forall_forall. intros c Hc. rewrite forallb_forall in H. apply H in Hc.
  unfold is_byteb in Hc. unfold is_byte. lia.
Qed.

Lemma name_ok_bytes : forall n, name_ok n = true -> is_bytes n.
Proof.
  intros n H. unfold name_ok in H. apply andb_prop in H as [_ H]. apply is_bytes_forallb.
  eapply forallb_impl; [|exact H]. intros c Hc. apply always_safe_lt in Hc. unfold is_byteb. lia.
Qed.

Lemma pchar_byte : forall c, pchar c = true -> is_byteb c = true.
Proof.
  intros c H. unfold pchar in H. unfold is_byteb.
  destruct (always_safe c) eqn:E; [apply always_safe_lt in E; lia|]. simpl in H. lia.
Qed.

Lemma state_dict_bytes : forall names vals, forallb name_ok names = true -> Forall opt_is_bytes vals ->
  pairs_bytes (state_query_dict names vals).
Proof.
  induction names as [|n ns IH]; intros [|v vs] Hn Hv; simpl; try constructor.
  apply andb_prop in Hn as [Hn1 Hn2]. inversion Hv; subst.
  apply Forall_app. split; [|apply IH; auto].
  destruct v; constructor; auto. split; simpl; auto using name_ok_bytes.
Qed.

Lemma present_bytes : forall names vals, forallb name_ok names = true -> Forall opt_is_bytes vals ->
  pairs_bytes (present names vals).
Proof.
  intros names vals Hn Hv. rewrite <- present_of_state_dict.
  eapply incl_Forall; [apply incl_filter|now apply state_dict_bytes].
Qed.

Lemma root_ok_inv : forall r, root_ok r = true -> r <> [] /\ mem 47 r = false /\ is_bytes r.
Proof.
  intros r H. unfold root_ok in H. apply andb_prop in H as [H H3]. apply andb_prop in H as [H1 H2].
  repeat split; [intros ->; discriminate|now apply negb_true_iff|now apply is_bytes_forallb].
Qed.

Lemma vals_quoted_pchar : forall vals, Forall opt_is_bytes vals ->
  Forall (fun p => forallb pchar p = true) (map (fun v => quote [] (val_or_empty v)) vals).
Proof.
  intros vals H. apply Forall_map. eapply Forall_impl; [|exact H].
  intros [x|] Hx; simpl; [now apply quote_pchar|reflexivity].
Qed.

Lemma norm_id : forall vals, Forall (fun v => v <> Some []) vals -> map norm vals = vals.
Proof.
  induction 1 as [|v vs Hv _ IH]; simpl; auto. rewrite IH. f_equal.
  destruct v as [[|x xs]|]; auto. congruence.
Qed.

Lemma norm_neq : forall x v, x <> Some v -> norm x <> Some v.
Proof. intros [[|y ys]|] v H; simpl; congruence. Qed.

Definition nonempty_fields (l : loc) : Prop := Forall (fun v => v <> Some []) (l_vals l).

Lemma loc_extension_bytes : forall l, Forall opt_is_bytes (l_vals l) -> is_bytes (loc_extension l).
Proof.
  intros l Hb. apply is_bytes_forallb, forallb_join; [reflexivity|].
  eapply Forall_impl; [|now apply vals_quoted_pchar]. intros p. apply forallb_impl, pchar_byte.
Qed.

Definition elem_enclosed (my other : option bytes) : Prop := my = None \/ my = other.
Lemma elem_ok_spec : forall my other, elem_ok my other = true <-> elem_enclosed my other.
Proof.
  intros [m|] [o|]; unfold elem_enclosed; simpl; split; intros H; auto; try discriminate.
  - apply bytes_eqb_eq in H. subst; auto.
  - destruct H as [H|H]; [discriminate|]. injection H as ->. apply bytes_eqb_refl.
  - destruct H; discriminate.
Qed.

Lemma contains_spec : forall self other, length (l_vals self) = length (l_vals other) ->
  (contains self other = true <->
   l_root self = l_root other /\ Forall2 elem_enclosed (l_vals self) (l_vals other)).
Proof.
  intros [r1 v1] [r2 v2]. unfold contains. simpl. intros Hl.
  rewrite andb_true_iff, bytes_eqb_eq.
  assert (forallb (fun p => elem_ok (fst p) (snd p)) (combine v1 v2) = true <-> Forall2 elem_enclosed v1 v2).
  { revert v2 Hl. induction v1 as [|a v1 IH]; intros [|b v2] Hl; try discriminate; simpl.
    - split; auto.
    - rewrite andb_true_iff, elem_ok_spec, IH by (simpl in Hl; congruence). split.
      + intros [? ?]; constructor; auto.
      + intros H; inversion H; auto. }
  tauto.
Qed.

Lemma contains_false_at : forall self other i v,
  nth_error (l_vals self) i = Some (Some v) -> (exists x, nth_error (l_vals other) i = Some x /\ x <> Some v) ->
  contains self other = false.
Proof.
  intros [r1 v1] [r2 v2] i v. unfold contains. simpl. intros H1 (x & H2 & Hx).
  apply andb_false_iff. right. revert v2 i H1 H2. induction v1 as [|a v1 IH]; intros v2 [|i] H1 H2; simpl in *; try discriminate.
  - injection H1 as ->. destruct v2 as [|b v2]; [discriminate|]. injection H2 as ->. simpl.
    destruct x as [o|]; simpl; auto. destruct (bytes_eqb v o) eqn:E; auto. apply bytes_eqb_eq in E. congruence.
  - destruct v2 as [|b v2]; [discriminate|]. simpl. rewrite (IH v2 i); auto. apply andb_false_r.
Qed.

Lemma norm_enclosed : forall a b, b <> Some [] -> elem_enclosed a b -> elem_enclosed a (norm b).
Proof. intros a [[|x xs]|] Hb H; simpl; auto. congruence. Qed.

Section WithConsts.
  Variable K : consts.

  Definition wf_loc (l : loc) : Prop :=
    length (l_vals l) = length (c_elements K) /\ Forall opt_is_bytes (l_vals l).

  (* what update_from_sdc_location writes and mk_scopes reads *)
  Definition loc_ident (l : loc) : ident := mkIdent (Some (c_ident_root K)) (Some (loc_extension l)).

  Lemma published_of_eq : forall l, published_of K l =
    if bytes_eqb (loc_extension l) slash5 then None
    else Some (published_scope K (mkState [loc_ident l] (l_vals l)) (loc_ident l)).
  Proof. intros l. unfold published_of, state_of. now destruct (bytes_eqb (loc_extension l) slash5). Qed.

  (* update_from_sdc_location accepts every location with at least one non-empty element: the segments of its
     extension are not the six empty ones of "/////" *)
  Lemma published_defined : forall l v,
    Forall opt_is_bytes (l_vals l) -> In (Some v) (l_vals l) -> v <> [] -> exists s, published_of K l = Some s.
  Proof.
    intros l v Hb Hin Hv. rewrite published_of_eq.
    destruct (bytes_eqb (loc_extension l) slash5) eqn:E; [|eauto].
    exfalso. apply bytes_eqb_eq in E. apply (f_equal (split_on 47)) in E.
    unfold loc_extension in E. rewrite split_on_join in E.
    - change (split_on 47 slash5) with (repeat (@nil N) 6) in E.
      apply (in_map (fun v => quote [] (val_or_empty v))) in Hin. rewrite E in Hin.
      apply repeat_spec, quote_nil_iff in Hin. contradiction.
    - destruct (l_vals l); [destruct Hin|discriminate].
    - eapply Forall_impl; [|now apply vals_quoted_pchar]. intros p Hp.
      eapply mem_false_forall; [exact Hp|reflexivity].
  Qed.

  Lemma scope_matches_of_parse : forall fixed split self s o,
    from_scope K split s = inl o -> scope_matches K fixed split self s = Ret (contains self o).
  Proof. intros fixed split self s o H. unfold scope_matches. now rewrite H. Qed.

  (* _scope_string_matches / _service_matches once ValueError is caught (fixed = true), as booleans: a scope is inside
     self iff it parses to a location that self contains.  C16_filter_spec states filter_services_inside with them. *)
  Definition scope_inside (split : bytes -> sres) (self : loc) (s : bytes) : bool :=
    match from_scope K split s with inl o => contains self o | inr _ => false end.
  Definition service_inside (split : bytes -> sres) (self : loc) (sv : service) : bool :=
    match sv with None => false | Some scopes => existsb (scope_inside split self) scopes end.

  Lemma scope_matches_inside : forall split self s,
    scope_matches K true split self s = Ret (scope_inside split self s).
  Proof. intros. unfold scope_matches, scope_inside. destruct (from_scope K split s) as [o|[|]]; reflexivity. Qed.

  Lemma service_matches_spec : forall split self sv,
    service_matches K true split self sv = Ret (service_inside split self sv).
  Proof.
    intros split self [scopes|]; simpl; auto. induction scopes as [|s t IH]; simpl; auto.
    rewrite scope_matches_inside. destruct (scope_inside split self s); simpl; auto.
  Qed.

  (* from here on the constants satisfy the side conditions *)
  Hypothesis HK : consts_ok K = true.

  Lemma consts_inv :
    scheme_ok (c_scheme K) = true /\ c_pub_scheme K = c_scheme K /\ length (c_elements K) = 6%nat /\
    forallb name_ok (c_elements K) = true /\ nodupb (c_elements K) = true /\
    root_ok (c_default_root K) = true /\ root_ok (c_ident_root K) = true.
  Proof.
    unfold consts_ok in HK. repeat (apply andb_prop in HK as [HK ?]).
    repeat split; auto. - now apply bytes_eqb_eq. - now apply Nat.eqb_eq.
  Qed.

  (* scheme ":/" quoted-root "/" segment ["?" query]: the root and the query dictionary are read back *)
  Lemma from_scope_shape : forall bad qroot seg q,
    qroot <> [] -> mem 47 qroot = false -> forallb path_char qroot = true ->
    forallb pchar seg = true -> forallb query_char q = true ->
    from_scope K (urlsplit bad) (urlunparse_nonetloc (c_scheme K) (47 :: qroot ++ 47 :: seg) q) =
    inl (mkLoc (unquote qroot) (map (fun n => dict_get n (parse_qsl q)) (c_elements K))).
  Proof.
    intros bad qroot seg q Hn Mq Pq Ps Hq. destruct consts_inv as (Hs & _).
    unfold from_scope. rewrite urlsplit_scope; auto.
    - destruct (scheme_ok_inv _ Hs) as (_ & _ & _ & Hl). rewrite Hl, bytes_eqb_refl.
      change (split_on 47 (47 :: qroot ++ 47 :: seg)) with ([] :: split_on 47 (qroot ++ 47 :: seg)).
      rewrite split_on_app, split_on_none by (auto; eapply mem_false_forall; eauto). reflexivity.
    - destruct qroot as [|c t]; [congruence|]. simpl in Mq. apply orb_false_elim in Mq as [Mq _].
      cbn [app starts_with2]. now rewrite (N.eqb_sym c), Mq, andb_false_r.
    - cbn [forallb]. rewrite forallb_app. cbn [forallb]. now rewrite Pq, pchar_path.
  Qed.

  Theorem roundtrip : forall bad l,
    wf_loc l -> nonempty_fields l -> root_ok (l_root l) = true ->
    from_scope K (urlsplit bad) (scope_string K l) = inl l.
  Proof.
    intros bad l [Hlen Hb] Hne Hr.
    destruct consts_inv as (_ & _ & _ & Hnames & Hnd & _).
    destruct (root_ok_inv _ Hr) as (Rn & R47 & Rb).
    assert (Pb : pairs_bytes (present (c_elements K) (l_vals l))) by (apply present_bytes; auto).
    unfold scope_string. rewrite from_scope_shape.
    - rewrite unquote_quote by auto.
      rewrite parse_qsl_urlencode by auto using enc_ok_quote_plus.
      rewrite present_filter_id, dict_get_present by auto. rewrite norm_id by auto.
      destruct l; reflexivity.
    - now rewrite quote_nil_iff.
    - now apply quote_slash_no47.
    - now apply quote_slash_path.
    - apply forallb_join; [reflexivity|]. now apply vals_quoted_pchar.
    - apply urlencode_query; auto using enc_ok_quote_plus.
  Qed.

  (* six values, so at least five separators *)
  Lemma loc_extension_nonempty : forall l, wf_loc l -> nonempty (loc_extension l) = true.
  Proof.
    intros l [Hlen _]. destruct consts_inv as (_ & _ & H6 & _). rewrite H6 in Hlen. unfold loc_extension.
    destruct (l_vals l) as [|v0 [|v1 r]]; try discriminate.
    rewrite !map_cons, join_cons2. now destruct (quote [] (val_or_empty v0)).
  Qed.

  Lemma published_shape : forall l s, wf_loc l -> published_of K l = Some s ->
    s = urlunparse_nonetloc (c_scheme K)
          (47 :: quote [] (c_ident_root K) ++ 47 :: quote [] (loc_extension l))
          (urlencode (quote []) (state_query_dict (c_elements K) (l_vals l))).
  Proof.
    intros l s Hwf H. rewrite published_of_eq in H.
    destruct (bytes_eqb (loc_extension l) slash5); [discriminate|]. injection H as <-.
    destruct consts_inv as (Hs & Hpub & _). destruct (scheme_ok_inv _ Hs) as (Hn & _).
    unfold published_scope. cbn [loc_ident i_root i_ext s_detail].
    rewrite (loc_extension_nonempty l Hwf), Hpub, urlunparse_shape by assumption.
    destruct (urlencode (quote []) (state_query_dict (c_elements K) (l_vals l))); cbn [nonempty optq opt_pre].
    - now rewrite app_nil_r.
    - now rewrite <- app_assoc.
  Qed.

  Theorem published_parse : forall bad l s, wf_loc l -> published_of K l = Some s ->
    from_scope K (urlsplit bad) s = inl (mkLoc (c_ident_root K) (map norm (l_vals l))).
  Proof.
    intros bad l s Hwf H. rewrite (published_shape l s Hwf H).
    destruct consts_inv as (_ & _ & _ & Hnames & Hnd & _ & Hir).
    destruct (root_ok_inv _ Hir) as (Rn & R47 & Rb).
    destruct Hwf as [Hlen Hb]. pose proof (loc_extension_bytes l Hb) as Eb.
    assert (Pb : pairs_bytes (state_query_dict (c_elements K) (l_vals l))) by (apply state_dict_bytes; auto).
    rewrite from_scope_shape.
    - rewrite unquote_quote by auto.
      rewrite parse_qsl_urlencode by auto using enc_ok_quote.
      rewrite present_of_state_dict, dict_get_present by auto. reflexivity.
    - now rewrite quote_nil_iff.
    - eapply mem_false_forall; [now apply quote_pchar|reflexivity].
    - now apply pchar_path, quote_pchar.
    - now apply quote_pchar.
    - apply urlencode_query; auto using enc_ok_quote.
  Qed.

  Lemma published_inside : forall bad fixed l l' s,
    wf_loc l -> nonempty_fields l -> published_of K l = Some s ->
    l_root l' = c_ident_root K -> Forall2 elem_enclosed (l_vals l') (l_vals l) ->
    scope_matches K fixed (urlsplit bad) l' s = Ret true.
  Proof.
    intros bad fixed l l' s Hwf Hne Hp Hr Hv.
    rewrite (scope_matches_of_parse fixed _ l' _ _ (published_parse bad l s Hwf Hp)), (norm_id _ Hne). f_equal.
    apply contains_spec; simpl; auto. eapply Forall2_length; eauto.
  Qed.

  Lemma published_not_inside : forall bad fixed l l' s i v x,
    wf_loc l -> published_of K l = Some s ->
    nth_error (l_vals l') i = Some (Some v) -> nth_error (l_vals l) i = Some x -> x <> Some v ->
    scope_matches K fixed (urlsplit bad) l' s = Ret false.
  Proof.
    intros bad fixed l l' s i v x Hwf Hp H1 H2 Hx.
    rewrite (scope_matches_of_parse fixed _ l' _ _ (published_parse bad l s Hwf Hp)). f_equal.
    apply (contains_false_at l' _ i v H1). simpl. exists (norm x).
    split; [now apply map_nth_error|now apply norm_neq].
  Qed.

End WithConsts.
Arguments scope_matches_of_parse K fixed {split} self {s o}.
