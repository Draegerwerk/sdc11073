(* Proofs about the query-service model (C20). *)
From Coq Require Import List ZArith Bool Permutation.
From SDC Require Import Common.ListFacts Query.Model.
Import ListNotations.
Open Scope Z_scope.

Lemma filter_head_in {A} (p : A -> bool) l c r : filter p l = c :: r -> In c l /\ p c = true.
Proof. intros F. apply filter_In. rewrite F. now left. Qed.

Lemma qs_eqb_eq x y : qs_eqb x y = true <-> q_ctx x = q_ctx y /\ q_handle x = q_handle y.
Proof. unfold qs_eqb. now rewrite andb_true_iff, Bool.eqb_true_iff, Z.eqb_eq. Qed.

Lemma qs_eqb_refl x : qs_eqb x x = true.
Proof. now apply qs_eqb_eq. Qed.

Lemma qs_eqb_sym x y : qs_eqb x y = qs_eqb y x.
Proof.
  unfold qs_eqb. rewrite (Z.eqb_sym (q_handle x)). f_equal.
  destruct (q_ctx x), (q_ctx y); reflexivity.
Qed.

Lemma qs_eqb_trans x y z : qs_eqb x y = true -> qs_eqb y z = true -> qs_eqb x z = true.
Proof. rewrite !qs_eqb_eq. intros [-> ->] [-> ->]. now split. Qed.

Lemma dedup_in l x : In x (dedup l) -> In x l.
Proof.
  revert x; induction l as [|y r IH]; intros x; cbn [dedup]; [tauto|].
  intros [->|Hi]; [now left|]. right. apply IH. apply filter_In in Hi. tauto.
Qed.

Lemma dedup_covers l x : In x l -> exists y, In y (dedup l) /\ qs_eqb y x = true.
Proof.
  induction l as [|z r IH]; intros Hi; [contradiction|]. cbn [dedup].
  destruct Hi as [->|Hi].
  - exists x. split; [now left|apply qs_eqb_refl].
  - destruct (IH Hi) as (y & Hy & E). destruct (qs_eqb z y) eqn:Ezy.
    + exists z. split; [now left|]. eapply qs_eqb_trans; eassumption.
    + exists y. split; [|assumption]. right. apply filter_In. split; [assumption|]. now rewrite Ezy.
Qed.

(* every key at most once *)
Fixpoint keys_distinct (l : list qstate) : Prop :=
  match l with
  | [] => True
  | x :: r => (forall y, In y r -> qs_eqb x y = false) /\ keys_distinct r
  end.

Lemma keys_distinct_filter f l : keys_distinct l -> keys_distinct (filter f l).
Proof.
  induction l as [|x r IH]; cbn [filter keys_distinct]; [tauto|]. intros [H1 H2].
  destruct (f x); cbn [keys_distinct]; [|now apply IH]. split; [|now apply IH].
  intros y Hy. apply H1. apply filter_In in Hy. tauto.
Qed.

Lemma dedup_distinct l : keys_distinct (dedup l).
Proof.
  induction l as [|x r IH]; cbn [dedup keys_distinct]; [exact I|]. split.
  - intros y Hy. apply filter_In in Hy. destruct Hy as [_ Hy]. now apply negb_true_iff in Hy.
  - now apply keys_distinct_filter.
Qed.

(* Both services answer a non-empty request with [dedup (flat_map f handles)], f the resolution of one handle:
   each key once, nothing but what some handle resolves to, and all of that up to the key. *)
Lemma dedup_flat_map_exact {A} (f : A -> list qstate) hs :
  let r := dedup (flat_map f hs) in
  keys_distinct r /\
  (forall s, In s r -> exists h, In h hs /\ In s (f h)) /\
  (forall h s, In h hs -> In s (f h) -> exists y, In y r /\ qs_eqb y s = true).
Proof.
  split; [apply dedup_distinct|]. split.
  - intros s Hs. apply in_flat_map. now apply dedup_in.
  - intros h s Hh Hs. apply dedup_covers, in_flat_map. exists h. split; assumption.
Qed.

(* so the answer depends only on the SET of requested handles: order and repetition in the request are invisible *)
Lemma dedup_flat_map_mono {A} (f : A -> list qstate) hs1 hs2 :
  (forall h, In h hs1 -> In h hs2) ->
  forall s, In s (dedup (flat_map f hs1)) -> exists y, In y (dedup (flat_map f hs2)) /\ qs_eqb y s = true.
Proof.
  intros Hsub s Hs. apply dedup_in, in_flat_map in Hs as (h & Hh & Hr).
  apply dedup_covers, in_flat_map. exists h. split; [now apply Hsub|assumption].
Qed.

Lemma resolve_state_sound flag m h s :
  In s (resolve_state flag m h) ->
  (In s (qm_states m) /\ q_dh s = h) \/
  (flag = true /\ In s (qm_cstates m) /\ (q_handle s = h \/ q_dh s = h)).
Proof.
  unfold resolve_state. destruct flag.
  - destruct (filter (fun s0 => q_handle s0 =? h) (qm_cstates m)) as [|c l] eqn:F.
    + rewrite in_app_iff. intros [Hi|Hi]; apply filter_In in Hi as [Hi E]; apply Z.eqb_eq in E; tauto.
    + intros [<-|[]]. apply filter_head_in in F as [Hc E]. apply Z.eqb_eq in E. tauto.
  - intros Hi. apply filter_In in Hi as [Hi E]. apply Z.eqb_eq in E. tauto.
Qed.

(* whatever is asked, nothing is returned that the MDIB does not hold; with the flag off GetMdState never
   returns a context state *)
Lemma get_md_state_contained flag m handles s :
  In s (get_md_state flag m handles) ->
  In s (qm_states m) \/ (flag = true /\ In s (qm_cstates m)).
Proof.
  destruct handles as [|h0 hs]; cbn [get_md_state]; intros Hi.
  - apply in_app_or in Hi as [Hi|Hi]; [now left|]. destruct flag; [right; now split | contradiction].
  - apply dedup_in, in_flat_map in Hi as (h & _ & Hr). apply resolve_state_sound in Hr. tauto.
Qed.

Lemma resolve_ctx_sound m h s :
  In s (resolve_ctx m h) ->
  In s (qm_cstates m) /\ (q_handle s = h \/ q_dh s = h \/ (In h (qm_mds m) /\ q_mds s = h)).
Proof.
  unfold resolve_ctx.
  destruct (filter (fun s0 => q_handle s0 =? h) (qm_cstates m)) as [|c l] eqn:F.
  - destruct (filter (fun s0 => q_dh s0 =? h) (qm_cstates m)) as [|c2 l2] eqn:F2.
    + destruct (existsb (Z.eqb h) (qm_mds m)) eqn:E; [|contradiction]. apply existsb_Zeqb_In in E.
      intros Hi. apply filter_In in Hi as [Hi Em]. apply Z.eqb_eq in Em. tauto.
    + intros Hi. rewrite <- F2 in Hi. apply filter_In in Hi as [Hi E]. apply Z.eqb_eq in E. tauto.
  - intros [<-|[]]. apply filter_head_in in F as [Hc E]. apply Z.eqb_eq in E. tauto.
Qed.

(* GetContextStates never returns anything but context states of the MDIB *)
Lemma get_context_states_contained m handles s :
  In s (get_context_states m handles) -> In s (qm_cstates m).
Proof.
  destruct handles as [|h0 hs]; cbn [get_context_states]; intros Hi; [assumption|].
  apply dedup_in, in_flat_map in Hi as (h & _ & Hr). now apply resolve_ctx_sound in Hr.
Qed.

Lemma insert_by_in {A} (key : A -> Z) x l y : In y (insert_by key x l) <-> In y (x :: l).
Proof.
  induction l as [|z r IH]; cbn [insert_by]; [reflexivity|].
  destruct (key x <? key z); [reflexivity|]. cbn [In] in *. rewrite IH. tauto.
Qed.

Lemma sort_by_in {A} (key : A -> Z) l y : In y (sort_by key l) <-> In y l.
Proof. unfold sort_by. rewrite (fold_insert_In _ (insert_by_in key)). cbn. tauto. Qed.

Lemma in_width_filter l w t : In t (width_filter l w) <-> In t l /\ tw2i (x_width t) <= w.
Proof. unfold width_filter. now rewrite sort_by_in, filter_In, Z.leb_le. Qed.

Lemma in_nol_filter l n t : In t (nol_filter l n) <-> In t l /\ x_nol t <= n.
Proof. unfold nol_filter. now rewrite sort_by_in, filter_In, Z.leb_le. Qed.

Lemma last_opt_in {A} (l : list A) x : last_opt l = Some x -> In x l.
Proof.
  unfold last_opt. destruct (rev l) as [|y r] eqn:E; [discriminate|]. intros [= <-].
  apply in_rev. rewrite E. now left.
Qed.

Lemma picked_last_in {A} (l : list A) t : In t (match last_opt l with Some x => [x] | None => [] end) -> In t l.
Proof. destruct (last_opt l) as [x|] eqn:L; [|contradiction]. intros [<-|[]]. now apply last_opt_in. Qed.

Lemma opt_eqb_eq a b : opt_eqb a b = true <-> a = b.
Proof.
  destruct a, b; cbn [opt_eqb]; [rewrite Z.eqb_eq| | |]; split; intros E; try discriminate; try reflexivity.
  - now subst.
  - now injection E.
Qed.

Lemma sel_lang_true langs t : sel_lang langs t = true <-> (langs <> [] -> In (x_lang t) langs).
Proof.
  unfold sel_lang. destruct langs as [|l0 ls]; [split; [intros _ C; contradiction|reflexivity]|].
  rewrite existsb_Zeqb_In. split; [intros Hi _; exact Hi|intros Hi; apply Hi; discriminate].
Qed.

(* grouping by (Ref, Lang) keeps the texts, as a multiset *)
Lemma snoc_inside_perm {A} (v r : list A) x : Permutation ((v ++ [x]) ++ r) ((v ++ r) ++ [x]).
Proof. rewrite <- !app_assoc. apply Permutation_app_head, Permutation_app_comm. Qed.

Lemma add_group_perm x g : Permutation (flat_map snd (add_group x g)) (flat_map snd g ++ [x]).
Proof.
  induction g as [|[k' v] g' IH]; cbn [add_group flat_map snd app]; [apply Permutation_refl|].
  destruct ((x_ref x =? fst k') && (x_lang x =? snd k')); cbn [flat_map snd]; [apply snoc_inside_perm|].
  rewrite <- app_assoc. now apply Permutation_app_head.
Qed.

Lemma group_perm l : forall acc, Permutation (flat_map snd (group_by_ref_lang l acc)) (flat_map snd acc ++ l).
Proof.
  induction l as [|x r IH]; intros acc; cbn [group_by_ref_lang]; [now rewrite app_nil_r|].
  eapply Permutation_trans; [apply IH|]. eapply Permutation_trans; [apply Permutation_app_tail, add_group_perm|].
  rewrite <- app_assoc. apply Permutation_refl.
Qed.

Lemma group_in l t : In t (flat_map snd (group_by_ref_lang l [])) <-> In t l.
Proof. split; apply Permutation_in; [|apply Permutation_sym]; apply (group_perm l []). Qed.

Lemma group_snd_in l g t : In g (group_by_ref_lang l []) -> In t (snd g) -> In t l.
Proof. intros Hg Ht. apply group_in, in_flat_map. now exists g. Qed.

Lemma flat_map_filter_snd {K} (p : ltext -> bool) (gs : list (K * list ltext)) :
  flat_map (fun g => filter p (snd g)) gs = filter p (flat_map snd gs).
Proof. induction gs as [|g r IH]; [reflexivity|]. cbn [flat_map]. now rewrite filter_app, IH. Qed.

(* [filter_body] in two stages: the texts stored under the requested Refs, narrowed to the requested languages
   and the effective version ([sel_texts]); then, per (Ref, Lang) group, the pick by TextWidth / NumberOfLines *)
Definition lookup (st : storage) (h : Z) : list ltext :=
  match find (fun e => Z.eqb (fst e) h) st with Some e => snd e | None => [] end.

Definition texts_of (st : storage) (refs : list Z) : list ltext :=
  flat_map (lookup st) (match refs with [] => map fst st | _ => refs end).

Definition sel_texts (st : storage) (refs : list Z) (version : option Z) (langs : list Z) : list ltext :=
  flat_map (fun g => filter (fun t => opt_eqb (x_ver t) (eff_version st version)) (snd g))
    (group_by_ref_lang
       (match langs with
        | [] => texts_of st refs
        | _ => filter (fun t => existsb (Z.eqb (x_lang t)) langs) (texts_of st refs)
        end) []).

Lemma filter_body_unsized st refs version langs both_key :
  filter_body st refs version langs [] [] both_key = sel_texts st refs version langs.
Proof. reflexivity. Qed.

Lemma filter_body_sized st refs version langs widths lines both_key t :
  In t (filter_body st refs version langs widths lines both_key) ->
  In t (sel_texts st refs version langs) /\
  (widths <> [] -> exists w, In w widths /\ tw2i (x_width t) <= w) /\
  (lines <> [] -> exists n, In n lines /\ x_nol t <= n).
Proof.
  unfold filter_body. set (T := flat_map _ (group_by_ref_lang _ [])).
  change T with (sel_texts st refs version langs). clear T.
  destruct widths as [|w0 ws], lines as [|n0 ns]; intros Ht.
  - split; [exact Ht|]. split; intros C; contradiction.
  - apply in_flat_map in Ht as (g & Hg & Ht). apply in_flat_map in Ht as (n & Hn & Ht).
    apply picked_last_in, in_nol_filter in Ht as [Ht En].
    split; [exact (group_snd_in _ g t Hg Ht)|]. split; [intros C; contradiction|]. intros _. now exists n.
  - apply in_flat_map in Ht as (g & Hg & Ht). apply in_flat_map in Ht as (w & Hw & Ht).
    apply picked_last_in, in_width_filter in Ht as [Ht Ew].
    split; [exact (group_snd_in _ g t Hg Ht)|]. split; [|intros C; contradiction]. intros _. now exists w.
  - apply in_flat_map in Ht as (g & Hg & Ht). apply in_flat_map in Ht as (w & Hw & Ht).
    apply in_flat_map in Ht as (n & Hn & Ht).
    apply picked_last_in, sort_by_in, in_nol_filter in Ht as [Ht En]. apply in_width_filter in Ht as [Ht Ew].
    split; [exact (group_snd_in _ g t Hg Ht)|]. split; intros _; [now exists w|now exists n].
Qed.

Lemma langs_filter langs (l : list ltext) :
  match langs with [] => l | _ => filter (fun t => existsb (Z.eqb (x_lang t)) langs) l end = filter (sel_lang langs) l.
Proof. unfold sel_lang. destruct langs; [now rewrite filter_all_true|reflexivity]. Qed.

Lemma sel_texts_in st refs version langs x :
  In x (sel_texts st refs version langs) <->
  In x (texts_of st refs) /\ sel_lang langs x = true /\ opt_eqb (x_ver x) (eff_version st version) = true.
Proof. unfold sel_texts. rewrite flat_map_filter_snd, filter_In, group_in, langs_filter, filter_In. tauto. Qed.

Lemma lookup_in st h x : In x (lookup st h) -> exists e, In e st /\ fst e = h /\ In x (snd e).
Proof.
  unfold lookup. destruct (find _ st) as [e|] eqn:F; [|contradiction]. intros Hx.
  apply find_some in F as [He Ef]. apply Z.eqb_eq in Ef. now exists e.
Qed.

Lemma texts_of_sound st refs x :
  (forall r e, In r refs -> In e st -> fst e = r -> forall x, In x (snd e) -> x_ref x = r) ->
  In x (texts_of st refs) -> In x (all_texts st) /\ (refs <> [] -> In (x_ref x) refs).
Proof.
  intros Hkey Hx. apply in_flat_map in Hx as (h & Hh & Hx). apply lookup_in in Hx as (e & He & Ef & Hx). split.
  - apply in_flat_map. now exists e.
  - intros Hr. destruct refs as [|r0 rs]; [contradiction|]. now rewrite (Hkey h e Hh He Ef x Hx).
Qed.

Lemma texts_of_all st t :
  (forall e e', In e st -> In e' st -> fst e = fst e' -> e = e') -> In t (all_texts st) -> In t (texts_of st []).
Proof.
  intros Hu Ht. apply in_flat_map in Ht as (e & He & Ht). apply in_flat_map. exists (fst e).
  split; [now apply in_map|]. unfold lookup. destruct (find (fun e0 => fst e0 =? fst e) st) as [e'|] eqn:F.
  - apply find_some in F as [He' Ef]. apply Z.eqb_eq in Ef. now rewrite (Hu e' e He' He Ef).
  - apply (find_none _ _ F) in He. cbn beta in He. now rewrite Z.eqb_refl in He.
Qed.

(* soundness of the text filter: every returned text satisfies every given constraint *)
Theorem filter_texts_sound st refs version langs widths lines both_key t :
  (forall r e, In r refs -> In e st -> fst e = r -> forall x, In x (snd e) -> x_ref x = r) ->
  In t (filter_texts st refs version langs widths lines both_key) ->
  text_ok st refs version langs widths lines t.
Proof.
  intros Hkey. unfold filter_texts. destruct (all_texts st); [contradiction|]. intros Ht.
  apply filter_body_sized in Ht as (Ht & Hw & Hl). apply sel_texts_in in Ht as (H0 & Hlang & Hv).
  apply (texts_of_sound _ _ _ Hkey) in H0 as [Ha Hr]. rewrite sel_lang_true in Hlang. apply opt_eqb_eq in Hv.
  repeat split; try assumption. destruct version; exact Hv.
Qed.

(* get_supported_languages lists exactly the stored languages, each once *)
Lemma dedup_z_in l x : In x (dedup_z l) <-> In x l.
Proof.
  induction l as [|y r IH]; cbn [dedup_z]; [tauto|]. cbn [In]. rewrite filter_In, IH.
  destruct (Z.eqb_spec y x) as [->|Hne]; cbn; tauto.
Qed.
Lemma dedup_z_nodup l : NoDup (dedup_z l).
Proof.
  induction l as [|y r IH]; cbn [dedup_z]; constructor.
  - rewrite filter_In. intros [_ E]. now rewrite Z.eqb_refl in E.
  - now apply NoDup_filter.
Qed.
Theorem supported_languages_exact st :
  NoDup (supported_languages st) /\
  (forall l, In l (supported_languages st) <-> exists t, In t (all_texts st) /\ x_lang t = l).
Proof.
  split; [apply dedup_z_nodup|]. intros l. unfold supported_languages. rewrite dedup_z_in, in_map_iff.
  split; intros (t & A & B); exists t; tauto.
Qed.

Lemma st_add_all_texts t st : Permutation (all_texts (st_add t st)) (all_texts st ++ [t]).
Proof.
  unfold all_texts. induction st as [|[k v] r IH]; cbn [st_add flat_map snd app]; [apply Permutation_refl|].
  destruct (Z.eqb k (x_ref t)); cbn [flat_map snd]; [apply snoc_inside_perm|].
  rewrite <- app_assoc. now apply Permutation_app_head.
Qed.

Lemma st_touch_all_texts r st : all_texts (st_touch r st) = all_texts st.
Proof.
  unfold st_touch, all_texts. destruct (existsb _ st); [reflexivity|].
  rewrite flat_map_app. cbn. now rewrite app_nil_r.
Qed.

Lemma st_touch_wf r st : st_wf st -> st_wf (st_touch r st).
Proof.
  intros [Hnd Hk]. unfold st_touch. destruct (existsb (fun e => fst e =? r) st) eqn:E; [now split|]. split.
  - rewrite map_app. apply NoDup_snoc; [assumption|].
    rewrite in_map_iff. intros (e & Ef & He). apply not_true_iff_false in E. apply E, existsb_exists.
    exists e. split; [assumption|now apply Z.eqb_eq].
  - intros e He x Hx. apply in_app_iff in He as [He|[<-|[]]]; [now apply (Hk e He)|contradiction].
Qed.

(* adding a text creates the entry of its Ref as reading that Ref does *)
Lemma st_add_keys t st : map fst (st_add t st) = map fst (st_touch (x_ref t) st).
Proof.
  unfold st_touch. induction st as [|[k v] r IH]; cbn [st_add existsb map fst]; [reflexivity|].
  destruct (Z.eqb_spec k (x_ref t)) as [E|Hne]; cbn [orb map fst]; [reflexivity|].
  rewrite IH. now destruct (existsb _ r).
Qed.

Lemma st_add_wf t st : st_wf st -> st_wf (st_add t st).
Proof.
  intros Hwf. split; [rewrite st_add_keys; now apply st_touch_wf|]. destruct Hwf as [_ Hk].
  induction st as [|[k v] r IH]; cbn [st_add]; intros e He x Hx.
  - destruct He as [<-|[]]. destruct Hx as [<-|[]]. reflexivity.
  - assert (Hr : forall e', In e' r -> forall x, In x (snd e') -> x_ref x = fst e')
      by (intros e' He'; apply Hk; now right).
    destruct (Z.eqb_spec k (x_ref t)) as [E|Hne]; destruct He as [<-|He]; try (now apply (Hr e)).
    + apply in_app_iff in Hx as [Hx|[<-|[]]]; [|now symmetry]. exact (Hk _ (or_introl eq_refl) x Hx).
    + exact (Hk _ (or_introl eq_refl) x Hx).
    + now apply (IH Hr e).
Qed.

Lemma st_touch_all_texts_all refs st : all_texts (fold_left (fun s r => st_touch r s) refs st) = all_texts st.
Proof. apply fold_frame. intros s r. apply st_touch_all_texts. Qed.

Lemma st_wf_nil : st_wf [].
Proof. split; [constructor|intros e []]. Qed.

Lemma lstep_wf st o : st_wf st -> st_wf (lstep st o).
Proof.
  destruct o; cbn [lstep]; intros H; [now apply st_add_wf|assumption|].
  apply fold_inv; [intros s r; apply st_touch_wf|assumption].
Qed.

(* every storage a history of add / query operations can produce is well formed *)
Theorem state_after_wf ops : st_wf (state_after ops).
Proof. unfold state_after. apply fold_inv; [intros st o; apply lstep_wf|apply st_wf_nil]. Qed.

(* ... and holds exactly the texts that were added (as a multiset): queries store or drop nothing *)
Theorem state_after_holds_added ops : Permutation (all_texts (state_after ops)) (added ops).
Proof.
  unfold state_after.
  assert (G : forall ops st, Permutation (all_texts (fold_left lstep ops st)) (all_texts st ++ added ops)).
  { induction ops0 as [|o r IH]; intros st; cbn [fold_left]; [unfold added; cbn; now rewrite app_nil_r|].
    eapply Permutation_trans; [apply IH|]. unfold added. cbn [flat_map]. fold (added r).
    destruct o; cbn [lstep].
    - rewrite app_assoc. apply Permutation_app_tail. apply st_add_all_texts.
    - apply Permutation_refl.
    - rewrite st_touch_all_texts_all. apply Permutation_refl. }
  apply (G ops []).
Qed.

(* the side conditions of the filter theorems follow from well-formedness *)
Lemma wf_keys_own_refs st : st_wf st ->
  forall refs r e, In r refs -> In e st -> fst e = r -> forall x, In x (snd e) -> x_ref x = r.
Proof. intros [_ Hk] refs r e _ He <- x Hx. now apply (Hk e He). Qed.

Lemma wf_keys_unique st : st_wf st -> forall e e', In e st -> In e' st -> fst e = fst e' -> e = e'.
Proof.
  intros [Hnd _] [k x] [k' y] He He' Ef. cbn [fst] in Ef. subst k'. f_equal.
  exact (NoDup_fst_fun st k x y Hnd He He').
Qed.

Lemma perm_filter {A} (p : A -> bool) l l' : Permutation l l' -> Permutation (filter p l) (filter p l').
Proof.
  induction 1; cbn [filter].
  - constructor.
  - destruct (p x); [now constructor|assumption].
  - destruct (p x), (p y); try apply Permutation_refl. apply perm_swap.
  - eapply Permutation_trans; eassumption.
Qed.

Lemma filter_filter_and {A} (p q : A -> bool) l : filter p (filter q l) = filter (fun x => q x && p x) l.
Proof.
  induction l as [|x r IH]; [reflexivity|]. cbn [filter]. destruct (q x); cbn [filter andb]; [|assumption].
  destruct (p x); now rewrite IH.
Qed.

Lemma filter_or_disjoint {A} (p q : A -> bool) l :
  (forall x, p x = true -> q x = true -> False) ->
  Permutation (filter (fun x => p x || q x) l) (filter p l ++ filter q l).
Proof.
  intros H. induction l as [|x r IH]; [constructor|]. cbn [filter].
  destruct (p x) eqn:Ep, (q x) eqn:Eq; cbn [orb app].
  - destruct (H x Ep Eq).
  - now constructor.
  - eapply Permutation_trans; [apply perm_skip, IH|]. apply Permutation_middle.
  - assumption.
Qed.

Lemma st_wf_tail e st : st_wf (e :: st) -> st_wf st.
Proof.
  intros [Hnd Hk]. cbn [map] in Hnd. apply NoDup_cons_iff in Hnd as [_ Hnd]. split; [assumption|].
  intros e' He'. apply Hk. now right.
Qed.

Lemma lookup_is_filter st h : st_wf st -> filter (fun t => x_ref t =? h) (all_texts st) = lookup st h.
Proof.
  unfold lookup, all_texts. induction st as [|e r IH]; intros Hwf; [reflexivity|].
  cbn [flat_map find]. rewrite filter_app. pose proof Hwf as [Hnd Hk]. cbn [map] in Hnd. apply NoDup_cons_iff in Hnd as [Hn _].
  destruct (Z.eqb_spec (fst e) h) as [E|Hne].
  - rewrite filter_all_true, filter_all_false; [now rewrite app_nil_r| |].
    + intros x Hx. apply in_flat_map in Hx as (e' & He' & Hx). apply Z.eqb_neq. intros Ex.
      apply Hn. assert (Ef : fst e' = fst e) by (rewrite <- (Hk e' (or_intror He') x Hx); congruence).
      rewrite <- Ef. now apply in_map.
    + intros x Hx. apply Z.eqb_eq. rewrite <- E. apply (Hk e (or_introl eq_refl) x Hx).
  - rewrite filter_all_false; [cbn [app]; apply IH; eapply st_wf_tail; eassumption|].
    intros x Hx. apply Z.eqb_neq. rewrite (Hk e (or_introl eq_refl) x Hx). assumption.
Qed.

Lemma lookup_perm st hs : st_wf st -> NoDup hs ->
  Permutation (flat_map (lookup st) hs) (filter (fun t => existsb (Z.eqb (x_ref t)) hs) (all_texts st)).
Proof.
  intros Hwf. induction hs as [|h r IH]; intros Hnd; cbn [flat_map existsb].
  - rewrite filter_all_false; [constructor|reflexivity].
  - apply NoDup_cons_iff in Hnd as [Hn Hnd]. apply Permutation_sym.
    eapply Permutation_trans; [apply filter_or_disjoint|].
    + intros x E1 E2. apply Z.eqb_eq in E1. apply existsb_Zeqb_In in E2. apply Hn. congruence.
    + rewrite lookup_is_filter by assumption. apply Permutation_app_head. apply Permutation_sym. now apply IH.
Qed.

Lemma texts_of_perm st refs : st_wf st -> NoDup refs ->
  Permutation (texts_of st refs) (filter (sel_ref refs) (all_texts st)).
Proof.
  intros Hwf Hnd. unfold texts_of, sel_ref. destruct refs as [|r0 rs]; [|now apply lookup_perm].
  eapply Permutation_trans; [apply lookup_perm; [assumption|apply Hwf]|].
  rewrite !filter_all_true; [apply Permutation_refl|reflexivity|].
  intros x Hx. apply existsb_Zeqb_In. destruct Hwf as [_ Hk].
  apply in_flat_map in Hx as (e & He & Hx). rewrite (Hk e He x Hx). now apply in_map.
Qed.

(* exactness without TextWidth / NumberOfLines: the answer is the selection, as a multiset *)
Theorem filter_texts_exact st refs version langs both_key :
  st_wf st -> NoDup refs ->
  Permutation (filter_texts st refs version langs [] [] both_key)
              (filter (text_selected st refs version langs) (all_texts st)).
Proof.
  intros Hwf Hnd. unfold filter_texts.
  destruct (all_texts st) as [|a0 ar] eqn:Eall; [constructor|]. rewrite <- Eall. clear a0 ar Eall.
  rewrite filter_body_unsized. unfold sel_texts. rewrite flat_map_filter_snd, langs_filter.
  eapply Permutation_trans; [apply perm_filter, (group_perm _ [])|]. cbn [flat_map app].
  eapply Permutation_trans; [apply perm_filter, perm_filter, texts_of_perm; assumption|].
  rewrite !filter_filter_and. unfold text_selected.
  erewrite filter_ext; [apply Permutation_refl|]. intros t. cbv beta. now rewrite andb_assoc.
Qed.

Lemma perm_ex_in {A} (P : A -> Prop) l l' :
  Permutation l l' -> ((exists t, In t l /\ P t) <-> (exists t, In t l' /\ P t)).
Proof.
  intros Hp. split; intros (t & Ht & Pt); exists t; (split; [|assumption]).
  - exact (Permutation_in t Hp Ht).
  - exact (Permutation_in t (Permutation_sym Hp) Ht).
Qed.

(* the step function of [max_version]'s fold *)
Definition ver_step (acc : option Z) (t : ltext) : option Z :=
  match x_ver t, acc with
  | Some v, Some a => Some (Z.max v a)
  | Some v, None => Some v
  | None, a => a
  end.

Lemma ver_step_comm a x y : ver_step (ver_step a x) y = ver_step (ver_step a y) x.
Proof.
  unfold ver_step. destruct (x_ver x) as [v|], (x_ver y) as [w|], a as [a|]; try reflexivity; f_equal.
  - now rewrite !Z.max_assoc, (Z.max_comm w v).
  - apply Z.max_comm.
Qed.

Lemma fold_ver_perm l l' : Permutation l l' -> forall a, fold_left ver_step l a = fold_left ver_step l' a.
Proof.
  induction 1; intros a; cbn [fold_left]; [reflexivity|apply IHPermutation|now rewrite ver_step_comm|].
  now rewrite IHPermutation1.
Qed.

Lemma max_version_perm st1 st2 : Permutation (all_texts st1) (all_texts st2) -> max_version st1 = max_version st2.
Proof. intros P. unfold max_version. apply (fold_ver_perm _ _ P). Qed.
