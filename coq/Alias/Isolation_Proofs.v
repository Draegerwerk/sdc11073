(* Alias/Isolation_Proofs.v -- whole-history isolation: an instance that no operation of a history targets
   keeps its value through the WHOLE history (C03: a handed-out copy and the stored object). *)
From Coq Require Import List ZArith Lia.
From SDC Require Import Alias.Model Alias.Proofs.
Import ListNotations.

Lemma set_nth_len' {A} (i : nat) (x : A) l : length (set_nth i x l) = length l.
Proof. apply set_nth_length. Qed.

Lemma write_gen_insts_len s r path f : length (insts (write_gen s r path f)) = length (insts s).
Proof.
  unfold write_gen. destruct (nth_error (insts s) r) as [rec|]; auto.
  destruct path as [|i rest]; simpl; [apply set_nth_length|].
  destruct (nth_error rec i) as [[z|l]|]; auto.
  destruct (walk (hp s) l rest) as [t|]; auto.
  destruct (nth_error (hp s) t); auto.
Qed.

Lemma no_update_snoc ops o : no_update ops -> is_update o = false -> no_update (ops ++ [o]).
Proof. unfold no_update. intros H E. rewrite forallb_app, H. simpl. now rewrite E. Qed.

(* the instance r' that no operation of [rest] targets keeps its value through all of [rest] *)
Lemma run_inst_frame c n r' : parse_fresh c = true -> mkcopy_deep c = true -> arg_fresh c = true ->
  forall rest s, upd c = UDeep \/ no_update rest -> Inv s -> Sep s ->
  Forall (fun o => target o <> Some r') rest -> r' < length (insts s) ->
  inst_values n (run c s rest) r' = inst_values n s r'.
Proof.
  intros PF MD AF. induction rest as [|o rest IH]; intros s U HI S FT L; [reflexivity|].
  inversion FT as [|? ? To FT']; subst. apply upd_ok_cons in U as [Uo U]. simpl.
  rewrite IH; auto using step_inv, step_sep.
  - now apply separation_frame.
  - eapply Nat.lt_le_trans; [exact L|apply step_insts].
Qed.

Theorem untargeted_instance_constant ds n r' : forall rest ops,
  no_update ops -> no_update rest -> Forall (fun o => target o <> Some r') rest ->
  r' < length (insts (run fixed (init ds) ops)) ->
  inst_values n (run fixed (init ds) (ops ++ rest)) r' = inst_values n (run fixed (init ds) ops) r'.
Proof.
  intros rest ops NU NR FT L. rewrite run_app.
  apply (run_inst_frame fixed); auto using reachable_inv, reachable_sep.
Qed.

(* handing out a copy of a valid instance appends exactly one instance *)
Lemma copy_appends ds ops r : r < length (insts (run fixed (init ds) ops)) ->
  length (insts (run fixed (init ds) (ops ++ [OCopy r]))) = S (length (insts (run fixed (init ds) ops))).
Proof.
  intros L. rewrite run_snoc. simpl.
  destruct (nth_error (insts (run fixed (init ds) ops)) r) as [rec|] eqn:E.
  - rewrite build_eq. simpl. rewrite app_length. simpl. lia.
  - apply nth_error_None in E. lia.
Qed.

(* (a) the stored object r is out of reach of whatever the application does with the copy it was handed *)
Theorem handed_out_copy_isolated ds ops r app n :
  no_update ops -> no_update app -> Forall (fun o => target o <> Some r) app ->
  r < length (insts (run fixed (init ds) ops)) ->
  inst_values n (run fixed (init ds) (ops ++ OCopy r :: app)) r = inst_values n (run fixed (init ds) ops) r.
Proof.
  intros NU NA FT L. apply untargeted_instance_constant; [exact NU| |constructor; [simpl; discriminate|exact FT]|exact L].
  unfold no_update in *. simpl. exact NA.
Qed.

(* (b) the copy is a snapshot: later writes to the stored object (or to anything but the copy) do not show in it *)
Theorem handed_out_copy_stable ds ops r later n :
  no_update ops -> no_update later ->
  r < length (insts (run fixed (init ds) ops)) ->
  Forall (fun o => target o <> Some (length (insts (run fixed (init ds) ops)))) later ->
  inst_values n (run fixed (init ds) (ops ++ OCopy r :: later)) (length (insts (run fixed (init ds) ops))) =
  inst_values n (run fixed (init ds) (ops ++ [OCopy r])) (length (insts (run fixed (init ds) ops))).
Proof.
  intros NU NL L FT.
  replace (ops ++ OCopy r :: later) with ((ops ++ [OCopy r]) ++ later) by (now rewrite <- app_assoc).
  apply untargeted_instance_constant; [now apply no_update_snoc|exact NL|exact FT|].
  rewrite copy_appends by exact L. lia.
Qed.
