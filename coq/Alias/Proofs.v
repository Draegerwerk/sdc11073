(* Alias -- proofs.
   [Inv]: a cell refers to older cells only (hwf), defaults and instances lie inside the heap, and no instance reaches
   a cell that a class default reaches.  [Sep]: no cell is reached from two instances.
   Every operation is an allocation, an in-place write below one instance, or both ([step_cases]):
   an allocation ([alloc_spec]) leaves the old cells alone, and what the new value reaches is new or reached through
   an alias named in the recipe; a write ([write_shape]) replaces one cell its instance reaches by one with no new
   references.  Hence [step_value_frame]: a value that shares no cell with the target of a step keeps its value.
   With [Inv] that is the constancy of the defaults, with [Sep] the independence of the other instances
   ([separation_frame]); both invariants hold from [init] on, [Sep] as long as no update copies less than deeply. *)
From Coq Require Import List ZArith Bool Lia.
From SDC Require Import Alias.Model.
Import ListNotations.

Lemma set_nth_length {A} (i : nat) (x : A) l : length (set_nth i x l) = length l.
Proof. revert i; induction l as [|y l IH]; intros [|i]; simpl; auto. Qed.

Lemma nth_error_set_nth_eq {A} (i : nat) (x : A) l :
  i < length l -> nth_error (set_nth i x l) i = Some x.
Proof. revert i; induction l as [|y l IH]; intros [|i]; simpl; intros; try lia; auto. apply IH; lia. Qed.

Lemma nth_error_set_nth_ne {A} (i j : nat) (x : A) l :
  i <> j -> nth_error (set_nth i x l) j = nth_error l j.
Proof.
  revert i j; induction l as [|y l IH]; intros [|i] [|j]; simpl; intros; try congruence; auto.
Qed.

Lemma nth_error_set_nth {A} (i j : nat) (x : A) l y :
  nth_error (set_nth i x l) j = Some y -> (i = j /\ y = x) \/ (i <> j /\ nth_error l j = Some y).
Proof.
  intros H. destruct (Nat.eq_dec i j) as [->|N].
  - left. split; auto. assert (j < length l).
    { rewrite <- (set_nth_length j x l). apply nth_error_Some. congruence. }
    rewrite nth_error_set_nth_eq in H by auto. congruence.
  - right. split; auto. now rewrite nth_error_set_nth_ne in H.
Qed.

Lemma in_set_nth {A} (i : nat) (x y : A) l : In y (set_nth i x l) -> y = x \/ In y l.
Proof.
  revert i; induction l as [|a l IH]; intros [|i]; simpl; auto.
  - intros [E|H]; auto.
  - intros [E|H]; auto. destruct (IH _ H); auto.
Qed.

Definition hwf (h : heap) : Prop :=
  forall l c j, nth_error h l = Some c -> In (Ref j) c -> j < l.
Definition vfits (n : nat) (v : fval) : Prop := match v with Imm _ => True | Ref l => l < n end.
Definition cfits (n : nat) (c : cell) : Prop := forall j, In (Ref j) c -> j < n.

Inductive reach (h : heap) : loc -> loc -> Prop :=
| reach_refl l : reach h l l
| reach_step l j k c : reach h l j -> nth_error h j = Some c -> In (Ref k) c -> reach h l k.

Definition vreach (h : heap) (v : fval) (k : loc) : Prop :=
  match v with Imm _ => False | Ref l => reach h l k end.
Definition creach (h : heap) (c : cell) (k : loc) : Prop := exists l, In (Ref l) c /\ reach h l k.

Lemma reach_trans h a b c : reach h a b -> reach h b c -> reach h a c.
Proof. intros H1 H2; induction H2; eauto using reach. Qed.

Lemma reach_le h : hwf h -> forall l k, reach h l k -> k <= l.
Proof. intros W l k R; induction R; auto. specialize (W _ _ _ H H0). lia. Qed.

Lemma reach_head h l k : reach h l k -> l = k \/ exists c j, nth_error h l = Some c /\ In (Ref j) c /\ reach h j k.
Proof.
  intros R; induction R; auto.
  destruct IHR as [->|(c0 & j0 & H1 & H2 & H3)].
  - right. exists c, k. repeat split; auto. constructor.
  - right. exists c0, j0. repeat split; auto. econstructor; eauto.
Qed.

(* cells reachable from l are the same in h and h' => same reachability, same value *)
Lemma reach_agree h h' l :
  (forall k, reach h l k -> nth_error h' k = nth_error h k) -> forall k, reach h l k -> reach h' l k.
Proof.
  intros A k R; induction R; [constructor|].
  econstructor; eauto. rewrite A; auto.
Qed.

Lemma value_agree h h' : forall n l,
  (forall k, reach h l k -> nth_error h' k = nth_error h k) ->
  value_f n h' (Ref l) = value_f n h (Ref l).
Proof.
  induction n as [|n IH]; intros l A; simpl; auto.
  rewrite (A l (reach_refl _ _)). destruct (nth_error h l) as [c|] eqn:E; auto.
  f_equal. apply map_ext_in. intros [z|j] Hin; [destruct n; reflexivity|].
  apply IH. intros k R. apply A. eapply reach_trans; [|exact R].
  econstructor; [constructor|exact E|exact Hin].
Qed.

Lemma value_f_imm n h z : value_f n h (Imm z) = TImm z.
Proof. destruct n; reflexivity. Qed.

(* enough fuel: the value does not depend on it *)
Lemma value_f_mono h : hwf h -> forall n m v, vfits n v -> vfits m v -> value_f n h v = value_f m h v.
Proof.
  intros W; induction n as [|n IH]; intros m [z|l] Fn Fm; try (now rewrite !value_f_imm);
    simpl in Fn, Fm; try lia.
  - destruct m as [|m]; [lia|]. simpl. destruct (nth_error h l) as [c|] eqn:E; auto.
    f_equal. apply map_ext_in. intros [z|j] Hin; [now rewrite !value_f_imm|].
    specialize (W _ _ _ E Hin). apply IH; simpl; lia.
Qed.

(* extension of the heap (allocation) does not touch old cells *)
Lemma reach_old h ext : hwf h -> forall l, l < length h -> forall k, reach h l k -> nth_error (h ++ ext) k = nth_error h k.
Proof. intros W l L k R. apply nth_error_app1. apply (reach_le _ W) in R. lia. Qed.

Lemma reach_ext_iff h ext : hwf h -> forall l, l < length h -> forall k, reach (h ++ ext) l k <-> reach h l k.
Proof.
  intros W l L k; split; intros R.
  - induction R; [constructor|]. specialize (IHR L).
    econstructor; [exact IHR| |exact H0]. rewrite <- H. symmetry. apply nth_error_app1.
    apply (reach_le _ W) in IHR. lia.
  - eapply reach_agree; [|exact R]. intros; eapply reach_old; eauto.
Qed.

Lemma value_ext h ext : hwf h -> forall n v, vfits (length h) v -> value_f n (h ++ ext) v = value_f n h v.
Proof.
  intros W n [z|l] F; [now rewrite !value_f_imm|]. simpl in F.
  apply value_agree. intros; eapply reach_old; eauto.
Qed.

Section PtreeInd.
  Variable P : ptree -> Prop.
  Hypothesis HI : forall z, P (PImm z).
  Hypothesis HA : forall l, P (PAlias l).
  Hypothesis HN : forall fs, Forall P fs -> P (PNode fs).
  Fixpoint ptree_ind' (p : ptree) : P p :=
    match p with
    | PImm z => HI z
    | PAlias l => HA l
    | PNode fs => HN fs ((fix go (fs : list ptree) : Forall P fs :=
                            match fs with
                            | [] => Forall_nil _
                            | f :: r => Forall_cons _ (ptree_ind' f) (go r)
                            end) fs)
    end.
End PtreeInd.

Lemma alloc_node h fs :
  alloc h (PNode fs) = (fst (alloc_list fs h) ++ [snd (alloc_list fs h)], Ref (length (fst (alloc_list fs h)))).
Proof.
  (* the local loop of alloc is alloc_list *)
  simpl. match goal with |- context [fst (?go fs h)] => assert (E : forall fs h, go fs h = alloc_list fs h) end.
  { induction fs0 as [|f r IH]; intros h0; simpl; auto. }
  now rewrite E.
Qed.

(* allocation only ever extends the heap, whatever the recipe refers to: the first clause of alloc_spec (below)
   without its hypotheses *)
Lemma alloc_list_ext_of ps : Forall (fun p => forall h, exists ext, fst (alloc h p) = h ++ ext) ps ->
  forall h, exists ext, fst (alloc_list ps h) = h ++ ext.
Proof.
  induction 1 as [|f r Hf _ IH]; intros h; simpl; [exists []; now rewrite app_nil_r|].
  destruct (Hf h) as [e1 E1]. destruct (alloc h f) as [h1 v]. destruct (IH h1) as [e2 E2].
  destruct (alloc_list r h1) as [h2 vs]. simpl in *. exists (e1 ++ e2). now rewrite E2, E1, app_assoc.
Qed.

Lemma alloc_ext : forall p h, exists ext, fst (alloc h p) = h ++ ext.
Proof.
  induction p as [z|l|fs IH] using ptree_ind'; intros h; try (exists []; simpl; now rewrite app_nil_r).
  rewrite alloc_node. simpl fst. destruct (alloc_list_ext_of fs IH h) as [e ->].
  exists (e ++ [snd (alloc_list fs h)]). now rewrite app_assoc.
Qed.

Lemma alloc_list_ext ps h : exists ext, fst (alloc_list ps h) = h ++ ext.
Proof. apply alloc_list_ext_of, Forall_forall. intros p _. apply alloc_ext. Qed.

Lemma alloc_list_len : forall ps h, length h <= length (fst (alloc_list ps h)).
Proof. intros ps h. destruct (alloc_list_ext ps h) as [ext ->]. rewrite app_length. apply Nat.le_add_r. Qed.

Lemma hwf_snoc h c : hwf h -> cfits (length h) c -> hwf (h ++ [c]).
Proof.
  intros W F l c0 j E Hin. destruct (Nat.lt_ge_cases l (length h)) as [L|L].
  - rewrite nth_error_app1 in E by auto. eauto.
  - rewrite nth_error_app2 in E by auto. destruct (l - length h) as [|d] eqn:D.
    + simpl in E. injection E as <-. apply F in Hin. lia.
    + simpl in E. destruct d; discriminate.
Qed.

Lemma pvalue_ext h ext : hwf h -> forall p, (forall a, In a (paliases p) -> a < length h) ->
  forall n, pvalue n (h ++ ext) p = pvalue n h p.
Proof.
  intros W p; induction p as [z|l|fs IH] using ptree_ind'; intros A n; simpl; auto.
  - destruct n; simpl; auto. rewrite nth_error_app1 by (apply A; simpl; auto).
    destruct (nth_error h l) as [c|] eqn:E; auto. f_equal. apply map_ext_in. intros v Hin.
    apply value_ext; auto. destruct v as [z|j]; simpl; auto.
    specialize (W _ _ _ E Hin). specialize (A l (or_introl eq_refl)). lia.
  - destruct n; auto. f_equal. apply map_ext_in. intros p Hin.
    rewrite Forall_forall in IH. apply IH; auto. intros a Ha. apply A. simpl.
    apply in_flat_map. eauto.
Qed.

(* What allocating recipe p in h gives.  The fourth clause is the one the invariants live on: a cell the new value
   reaches is new, or was reached in h from an alias the recipe names -- so a recipe without aliases shares nothing. *)
Definition alloc_spec (h : heap) (p : ptree) (h' : heap) (v : fval) : Prop :=
  (exists ext, h' = h ++ ext) /\ hwf h' /\ vfits (length h') v /\
  (forall k, vreach h' v k -> length h <= k \/ exists a, In a (paliases p) /\ reach h a k) /\
  (forall n, value_f n h' v = pvalue n h p).

Definition allocs_spec (h : heap) (ps : list ptree) (h' : heap) (vs : list fval) : Prop :=
  (exists ext, h' = h ++ ext) /\ hwf h' /\ cfits (length h') vs /\
  (forall k, creach h' vs k -> length h <= k \/ exists a, In a (flat_map paliases ps) /\ reach h a k) /\
  (forall n, map (value_f n h') vs = map (pvalue n h) ps).

Ltac split5 := split; [|split; [|split; [|split]]].

Definition alloc_ok (p : ptree) : Prop :=
  forall h, hwf h -> (forall a, In a (paliases p) -> a < length h) ->
            alloc_spec h p (fst (alloc h p)) (snd (alloc h p)).

Lemma alloc_list_ok ps : Forall alloc_ok ps ->
  forall h, hwf h -> (forall a, In a (flat_map paliases ps) -> a < length h) ->
            allocs_spec h ps (fst (alloc_list ps h)) (snd (alloc_list ps h)).
Proof.
  induction 1 as [|f r Hf Hr IH]; intros h W A; simpl.
  - split5.
    + exists []. now rewrite app_nil_r.
    + exact W.
    + intros j [].
    + intros k (l & [] & _).
    + reflexivity.
  - assert (Af : forall a, In a (paliases f) -> a < length h) by (intros; apply A; simpl; apply in_or_app; auto).
    assert (Ar : forall a, In a (flat_map paliases r) -> a < length h) by (intros; apply A; simpl; apply in_or_app; auto).
    specialize (Hf h W Af). destruct (alloc h f) as [h1 v]. simpl in Hf.
    destruct Hf as ((e1 & E1) & W1 & F1 & R1 & V1).
    assert (L1 : length h <= length h1) by (rewrite E1, app_length; lia).
    specialize (IH h1 W1 (fun a Ha => Nat.lt_le_trans _ _ _ (Ar a Ha) L1)).
    destruct (alloc_list r h1) as [h2 vs]. simpl in IH |- *.
    destruct IH as ((e2 & E2) & W2 & F2 & R2 & V2).
    assert (L2 : length h1 <= length h2) by (rewrite E2, app_length; lia).
    split5.
    + exists (e1 ++ e2). now rewrite E2, E1, app_assoc.
    + exact W2.
    + intros j [E|Hin]; [|now apply F2]. subst v. simpl in F1. lia.
    + intros k (l & [E|Hin] & Rk).
      * subst v. simpl in F1. rewrite E2 in Rk. apply (reach_ext_iff _ _ W1 _ F1) in Rk.
        destruct (R1 k Rk) as [?|(a & Ha & Ra)]; auto. right. exists a. split; auto. apply in_or_app; auto.
      * destruct (R2 k (ex_intro _ l (conj Hin Rk))) as [?|(a & Ha & Ra)]; [left; lia|].
        right. exists a. split; [apply in_or_app; auto|]. rewrite E1 in Ra.
        apply (reach_ext_iff _ _ W _ (Ar a Ha)) in Ra. exact Ra.
    + intros n. simpl. f_equal.
      * rewrite <- V1. rewrite E2. apply value_ext; auto.
      * rewrite V2. apply map_ext_in. intros p Hin. rewrite E1. apply pvalue_ext; auto.
        intros a Ha. apply Ar. apply in_flat_map. eauto.
Qed.

Lemma alloc_all_ok : forall p, alloc_ok p.
Proof.
  induction p as [z|l|fs IH] using ptree_ind'; intros h W A.
  - simpl. split5; simpl.
    + exists []. now rewrite app_nil_r.
    + exact W.
    + exact I.
    + intros k [].
    + intros n. apply value_f_imm.
  - simpl. split5; simpl.
    + exists []. now rewrite app_nil_r.
    + exact W.
    + apply A. simpl; auto.
    + intros k R. right. exists l. simpl; auto.
    + reflexivity.
  - rewrite alloc_node. simpl fst; simpl snd.
    pose proof (alloc_list_ok fs IH h W A) as S.
    destruct (alloc_list fs h) as [h1 vs]. simpl in S |- *.
    destruct S as ((e1 & E1) & W1 & F1 & R1 & V1).
    assert (Wn : hwf (h1 ++ [vs])) by (apply hwf_snoc; auto).
    split5.
    + exists (e1 ++ [vs]). now rewrite E1, app_assoc.
    + exact Wn.
    + rewrite app_length. simpl. lia.
    + intros k R. apply reach_head in R. destruct R as [<-|(c & j & Ec & Hin & Rj)].
      * left. rewrite E1, app_length. lia.
      * rewrite nth_error_app2, Nat.sub_diag in Ec by lia. simpl in Ec. injection Ec as <-.
        pose proof (F1 _ Hin) as Fj. apply (reach_ext_iff _ _ W1 _ Fj) in Rj.
        apply R1. exists j. auto.
    + intros [|n]; simpl; auto.
      rewrite nth_error_app2, Nat.sub_diag by lia. simpl. f_equal. rewrite <- V1.
      apply map_ext_in. intros v Hin. apply value_ext; auto. destruct v; simpl; auto.
Qed.

Lemma alloc_list_spec ps h : hwf h -> (forall a, In a (flat_map paliases ps) -> a < length h) ->
  allocs_spec h ps (fst (alloc_list ps h)) (snd (alloc_list ps h)).
Proof. apply alloc_list_ok. apply Forall_forall. intros; apply alloc_all_ok. Qed.

Record Inv (s : state) : Prop := mkInv {
  inv_wf : hwf (hp s);
  inv_dfl : forall d, In d (dfl s) -> d < length (hp s);
  inv_fits : forall rec, In rec (insts s) -> cfits (length (hp s)) rec;
  (* no instance reaches a cell that belongs to a class default *)
  inv_iso : forall rec d k, In rec (insts s) -> In d (dfl s) ->
                            creach (hp s) rec k -> reach (hp s) d k -> False }.

(* SEPARATION: the nested objects of two different instances are disjoint *)
Definition Sep (s : state) : Prop :=
  forall i j ri rj k, i <> j -> nth_error (insts s) i = Some ri -> nth_error (insts s) j = Some rj ->
                      creach (hp s) ri k -> creach (hp s) rj k -> False.

Lemma creach_ext h ext c : hwf h -> cfits (length h) c -> forall k, creach (h ++ ext) c k <-> creach h c k.
Proof.
  intros W F k; split; intros (l & Hin & R); exists l; split; auto;
    apply (reach_ext_iff _ ext W _ (F _ Hin)); auto.
Qed.

Lemma creach_lt h c k : hwf h -> cfits (length h) c -> creach h c k -> k < length h.
Proof. intros W F (l & Hin & R). apply F in Hin. apply (reach_le _ W) in R. lia. Qed.

(* aliases that are harmless for the defaults *)
Definition clean (s : state) (a : loc) : Prop :=
  a < length (hp s) /\ forall d k, In d (dfl s) -> reach (hp s) a k -> reach (hp s) d k -> False.

Lemma alloc_inv s ps insts' :
  Inv s -> (forall a, In a (flat_map paliases ps) -> clean s a) ->
  (forall rec, In rec insts' -> In rec (insts s) \/ rec = snd (alloc_list ps (hp s))) ->
  Inv (mkState (fst (alloc_list ps (hp s))) (dfl s) insts').
Proof.
  intros [W D F I] C Hi.
  destruct (alloc_list_spec ps (hp s) W (fun a Ha => proj1 (C a Ha))) as ((ext & E) & W' & F' & R' & _).
  set (h' := fst (alloc_list ps (hp s))) in *. set (vs := snd (alloc_list ps (hp s))) in *.
  assert (L : length (hp s) <= length h') by (rewrite E, app_length; lia).
  constructor; simpl.
  - exact W'.
  - intros d Hd. specialize (D d Hd). lia.
  - intros rec Hr. destruct (Hi rec Hr) as [Ho| ->]; auto. intros j Hj. specialize (F rec Ho j Hj). lia.
  - intros rec d k Hr Hd Rc Rd. rewrite E in Rd. apply (reach_ext_iff _ _ W _ (D d Hd)) in Rd.
    destruct (Hi rec Hr) as [Ho| ->].
    + rewrite E in Rc. apply (creach_ext _ _ _ W (F rec Ho)) in Rc. eauto.
    + destruct (R' k Rc) as [Lk|(a & Ha & Ra)].
      * apply (reach_le _ W) in Rd. specialize (D d Hd). lia.
      * destruct (C a Ha) as [_ Cl]. eauto.
Qed.

Lemma alloc_values s ps : Inv s -> (forall a, In a (flat_map paliases ps) -> a < length (hp s)) ->
  forall n v, vfits (length (hp s)) v ->
              value_f n (fst (alloc_list ps (hp s))) v = value_f n (hp s) v.
Proof.
  intros [W D F I] C n v Fv.
  destruct (alloc_list_spec ps (hp s) W C) as ((ext & E) & _). rewrite E. apply value_ext; auto.
Qed.

Lemma build_eq s ps : build s ps = mkState (fst (alloc_list ps (hp s))) (dfl s) (insts s ++ [snd (alloc_list ps (hp s))]).
Proof. unfold build. now destruct (alloc_list ps (hp s)). Qed.

Lemma build_inv s ps : Inv s -> (forall a, In a (flat_map paliases ps) -> clean s a) -> Inv (build s ps).
Proof.
  intros HI C. rewrite build_eq. apply alloc_inv; auto.
  intros rec Hin. apply in_app_or in Hin. destruct Hin as [?|[<-|[]]]; auto.
Qed.

(* allocation of an alias-free record that REPLACES (or extends by) the record at position p *)
Lemma alloc_sep s ps insts' p :
  Inv s -> Sep s -> flat_map paliases ps = [] ->
  (forall i ri, nth_error insts' i = Some ri ->
     (i <> p /\ nth_error (insts s) i = Some ri) \/ (i = p /\ ri = snd (alloc_list ps (hp s)))) ->
  Sep (mkState (fst (alloc_list ps (hp s))) (dfl s) insts').
Proof.
  intros [W D F I] S A Hi.
  assert (C : forall a, In a (flat_map paliases ps) -> a < length (hp s)) by (rewrite A; intros a []).
  destruct (alloc_list_spec ps (hp s) W C) as ((ext & E) & _ & _ & R' & _).
  intros i j ri rj k Nij Hi' Hj Ri Rj. simpl in *.
  (* the record at p reaches new cells only, every other record what it reached before: old cells *)
  assert (Cl : forall i ri, nth_error insts' i = Some ri -> creach (fst (alloc_list ps (hp s))) ri k ->
            (i = p /\ length (hp s) <= k) \/
            (i <> p /\ nth_error (insts s) i = Some ri /\ creach (hp s) ri k /\ k < length (hp s))).
  { intros i0 r0 Hn Rc. destruct (Hi _ _ Hn) as [[Np Ho]|[Ep ->]]; [right|left].
    - pose proof (F _ (nth_error_In _ _ Ho)) as Fo. rewrite E in Rc. apply (creach_ext _ _ _ W Fo) in Rc.
      repeat split; auto. exact (creach_lt _ _ _ W Fo Rc).
    - split; [exact Ep|]. destruct (R' k Rc) as [?|(a & Ha & _)]; auto. rewrite A in Ha. destruct Ha. }
  destruct (Cl _ _ Hi' Ri) as [[Ei Li]|(Ni & Hi'' & Ri' & Li)], (Cl _ _ Hj Rj) as [[Ej Lj]|(Nj & Hj' & Rj' & Lj)];
    [congruence|lia|lia|exact (S i j ri rj k Nij Hi'' Hj' Ri' Rj')].
Qed.

Lemma build_sep s ps : Inv s -> Sep s -> flat_map paliases ps = [] -> Sep (build s ps).
Proof.
  intros HI S A. rewrite build_eq. apply (alloc_sep s ps _ (length (insts s))); auto.
  intros i ri Hn. destruct (Nat.lt_ge_cases i (length (insts s))) as [L|L].
  - rewrite nth_error_app1 in Hn by exact L. left. split; [apply Nat.lt_neq, L|exact Hn].
  - rewrite nth_error_app2 in Hn by exact L. destruct (i - length (insts s)) as [|[|?]] eqn:D; try discriminate Hn.
    injection Hn as <-. right. split; [|reflexivity]. apply Nat.le_antisymm; [|exact L]. now apply Nat.sub_0_le.
Qed.

Lemma of_tree_no_alias t : paliases (of_tree t) = [].
Proof.
  revert t. fix IH 1. intros [z|fs]; simpl; auto.
  induction fs as [|f r IHr]; simpl; auto. now rewrite IH, IHr.
Qed.

Lemma resolve_fresh_no_alias s x : paliases (resolve true true s x) = [].
Proof.
  revert x. fix IH 1. intros [z|fs|k|k]; simpl; auto.
  2,3: destruct (nth_error (dfl s) k); simpl; auto; apply of_tree_no_alias.
  induction fs as [|f r IHr]; simpl; auto. now rewrite IH, IHr.
Qed.

Lemma no_alias_map {A} (f : A -> ptree) l : (forall x, paliases (f x) = []) -> flat_map paliases (map f l) = [].
Proof. intros H. induction l as [|x l IH]; simpl; [reflexivity|]. now rewrite H, IH. Qed.

Lemma no_alias_fresh s fs : flat_map paliases (map (resolve true true s) fs) = [].
Proof. apply no_alias_map, resolve_fresh_no_alias. Qed.

Lemma no_alias_deep h rec : flat_map paliases (map (deep_p h) rec) = [].
Proof. apply no_alias_map. intros v. apply of_tree_no_alias. Qed.

Lemma clean_nil s ps : flat_map paliases ps = [] -> forall a, In a (flat_map paliases ps) -> clean s a.
Proof. intros -> a []. Qed.

Definition sub_refs (c' c : cell) : Prop := forall j, In (Ref j) c' -> In (Ref j) c.

Lemma sub_refs_set c k z : sub_refs (set_nth k (Imm z) c) c.
Proof. intros j H. apply in_set_nth in H. destruct H; [discriminate|auto]. Qed.

Lemma creach_sub h c' c k : sub_refs c' c -> creach h c' k -> creach h c k.
Proof. intros S (l & Hin & R). exists l; auto. Qed.

Lemma walk_reach h : forall path l t, walk h l path = Some t -> reach h l t.
Proof.
  induction path as [|i rest IH]; simpl; intros l t H.
  - injection H as <-. constructor.
  - destruct (nth_error h l) as [c|] eqn:E; try discriminate.
    destruct (nth_error c i) as [[z|j]|] eqn:Ei; try discriminate.
    eapply reach_trans; [|apply IH; eauto]. econstructor; [constructor|exact E|]. eapply nth_error_In; eauto.
Qed.

Section HeapWrite.
  Variables (h : heap) (t : loc) (c c' : cell).
  Hypothesis Ht : nth_error h t = Some c.
  Hypothesis Sub : sub_refs c' c.
  Let h' := set_nth t c' h.

  Lemma hw_reach a b : reach h' a b -> reach h a b.
  Proof.
    intros R; induction R; [constructor|]. unfold h' in H. apply nth_error_set_nth in H.
    destruct H as [[-> ->]|[N H]]; econstructor; eauto.
  Qed.

  Lemma hw_wf : hwf h -> hwf h'.
  Proof.
    intros W l c0 j E Hin. unfold h' in E. apply nth_error_set_nth in E.
    destruct E as [[-> ->]|[N E]]; eauto.
  Qed.

  Lemma hw_len : length h' = length h.
  Proof. apply set_nth_length. Qed.

  Lemma hw_frame l : ~ reach h l t -> forall n, value_f n h' (Ref l) = value_f n h (Ref l).
  Proof.
    intros N n. apply value_agree. intros k R. unfold h'. apply nth_error_set_nth_ne. intros ->. auto.
  Qed.

  Lemma hw_creach rec k : creach h' rec k -> creach h rec k.
  Proof. intros (l & Hin & R). exists l. split; auto. apply hw_reach; auto. Qed.
End HeapWrite.

Inductive write_shape (s s' : state) (r : nat) : Prop :=
| ws_same : s' = s -> write_shape s s' r
| ws_top rec rec' : nth_error (insts s) r = Some rec -> sub_refs rec' rec ->
    s' = mkState (hp s) (dfl s) (set_nth r rec' (insts s)) -> write_shape s s' r
| ws_heap rec t c c' : nth_error (insts s) r = Some rec -> creach (hp s) rec t ->
    nth_error (hp s) t = Some c -> sub_refs c' c ->
    s' = mkState (set_nth t c' (hp s)) (dfl s) (insts s) -> write_shape s s' r.

Lemma write_gen_shape_ok s r path f : (forall c, sub_refs (f c) c) -> write_shape s (write_gen s r path f) r.
Proof.
  intros Hf. unfold write_gen. destruct (nth_error (insts s) r) as [rec|] eqn:Er; [|now apply ws_same].
  destruct path as [|i rest].
  - eapply ws_top; eauto.
  - destruct (nth_error rec i) as [[z0|l]|] eqn:Ei; try now apply ws_same.
    destruct (walk (hp s) l rest) as [t|] eqn:Ew; [|now apply ws_same].
    destruct (nth_error (hp s) t) as [c|] eqn:Et; [|now apply ws_same].
    eapply ws_heap; eauto.
    exists l. split; [eapply nth_error_In; eauto|eapply walk_reach; eauto].
Qed.

Lemma write_shape_ok s r path k z : write_shape s (write s r path k z) r.
Proof. apply write_gen_shape_ok. intros c. apply sub_refs_set. Qed.

(* in-place list operations only ever DROP references or add immutable values *)
Lemma in_removelast {A} (x : A) l : In x (removelast l) -> In x l.
Proof.
  induction l as [|a l IH]; simpl; auto. destruct l as [|b l]; [intros []|].
  intros [E|H]; auto.
Qed.

Lemma sub_refs_mut m c : sub_refs (mut_cell m c) c.
Proof.
  destruct m as [z| |]; intros j H; simpl in H.
  - apply in_app_or in H as [H|[H|[]]]; auto. discriminate.
  - now apply in_removelast.
  - destruct H.
Qed.

Lemma mutate_shape_ok s r path m : write_shape s (mutate s r path m) r.
Proof. apply write_gen_shape_ok. intros c. apply sub_refs_mut. Qed.

Lemma write_inv s s' r : write_shape s s' r -> Inv s -> Inv s'.
Proof.
  intros [->|rec rec' Er Sub ->|rec t c c' Er Rt Et Sub ->] [W D F I]; [constructor; auto| |].
  - constructor; simpl; auto.
    + intros x Hx. apply in_set_nth in Hx. destruct Hx as [->|Hx]; auto.
      intros j Hj. eapply F; [eapply nth_error_In; eauto|auto].
    + intros x d k Hx Hd Rc Rd. apply in_set_nth in Hx. destruct Hx as [->|Hx]; eauto.
      eapply I; [eapply nth_error_In; exact Er|exact Hd| |exact Rd]. eapply creach_sub; eauto.
  - constructor; simpl.
    + eapply hw_wf; eauto.
    + intros d Hd. rewrite set_nth_length. auto.
    + intros x Hx. rewrite set_nth_length. auto.
    + intros x d k Hx Hd Rc Rd. eapply I; [exact Hx|exact Hd| |].
      * eapply hw_creach; eauto.
      * eapply hw_reach; eauto.
Qed.

Lemma write_sep s s' r : write_shape s s' r -> Sep s -> Sep s'.
Proof.
  intros [->|rec rec' Er Sub ->|rec t c c' Er Rt Et Sub ->] S; auto.
  - intros i j ri rj k Nij Hi Hj Ri Rj. simpl in *.
    apply nth_error_set_nth in Hi. apply nth_error_set_nth in Hj.
    destruct Hi as [[<- ->]|[Ni Hi]], Hj as [[<- ->]|[Nj Hj]]; try congruence.
    + eapply (S r j); eauto. eapply creach_sub; eauto.
    + eapply (S i r); eauto. eapply creach_sub; eauto.
    + eapply (S i j); eauto.
  - intros i j ri rj k Nij Hi Hj Ri Rj. simpl in *.
    eapply (S i j); eauto; eapply hw_creach; eauto.
Qed.

(* a write through instance r leaves alone every value that shares no cell with that instance *)
Lemma write_value_frame s s' r n v : write_shape s s' r ->
  (forall rec t, nth_error (insts s) r = Some rec -> creach (hp s) rec t -> ~ vreach (hp s) v t) ->
  value_f n (hp s') v = value_f n (hp s) v.
Proof.
  intros [->|rec rec' Er Sub ->|rec t c c' Er Rt Et Sub ->] N; auto.
  destruct v as [z|l]; [now rewrite !value_f_imm|]. simpl. eapply hw_frame; eauto.
Qed.

Lemma write_shape_insts s s' r : write_shape s s' r ->
  dfl s' = dfl s /\ length (hp s') = length (hp s) /\ length (insts s') = length (insts s) /\
  forall r', r' <> r -> nth_error (insts s') r' = nth_error (insts s) r'.
Proof.
  intros [->|rec rec' Er Sub ->|rec t c c' Er Rt Et Sub ->]; simpl; rewrite ?set_nth_length; auto.
  repeat split. intros r' N. apply nth_error_set_nth_ne. congruence.
Qed.

Definition update_state (m : umode) (s : state) (dst : nat) (ov : list (option Z)) (rec : cell) : state :=
  mkState (fst (alloc_list (upd_list m (hp s) ov rec) (hp s))) (dfl s)
          (set_nth dst (snd (alloc_list (upd_list m (hp s) ov rec) (hp s))) (insts s)).

Lemma step_update c s dst src ov : step c s (OUpdate dst src ov) =
  match nth_error (insts s) dst, nth_error (insts s) src with
  | Some _, Some rec => update_state (upd c) s dst ov rec
  | _, _ => s
  end.
Proof.
  simpl. destruct (nth_error (insts s) dst); auto. destruct (nth_error (insts s) src) as [rec|]; auto.
  unfold update_state. now destruct (alloc_list (upd_list (upd c) (hp s) ov rec) (hp s)).
Qed.

Lemma upd_list_aliases m h : forall rec ov a,
  In a (flat_map paliases (upd_list m h ov rec)) -> In a (flat_map paliases (map (upd_p m h) rec)).
Proof.
  induction rec as [|v r IH]; intros ov a Ha; simpl in *; auto.
  destruct ov as [|[z|] ro]; simpl in Ha.
  - apply in_app_or in Ha as [Ha|Ha]; apply in_or_app; eauto.
  - apply in_or_app; eauto.
  - apply in_app_or in Ha as [Ha|Ha]; apply in_or_app; eauto.
Qed.

(* whatever the copy mode of update_from_other_container: the aliases it creates for a member are objects that
   member reaches (the member object itself, the objects one level below, none) *)
Lemma upd_p_alias m h v a : In a (paliases (upd_p m h v)) -> vreach h v a.
Proof.
  destruct v as [z|l]; [destruct m; simpl; try (unfold deep_p; rewrite value_f_imm); intros []|].
  destruct m; simpl.
  - intros [<-|[]]. constructor.
  - destruct (nth_error h l) as [c|] eqn:E; simpl; [|intros []]. intros Ha.
    apply in_flat_map in Ha as (q & Hq & Ha). apply in_map_iff in Hq as ([z|j] & <- & Hj); simpl in Ha; [destruct Ha|].
    destruct Ha as [<-|[]]. econstructor; [constructor|exact E|exact Hj].
  - unfold deep_p. rewrite of_tree_no_alias. intros [].
Qed.

(* what an instance reaches is out of reach of the class defaults *)
Lemma creach_clean s rec a : Inv s -> In rec (insts s) -> creach (hp s) rec a -> clean s a.
Proof.
  intros [W D F I] Hr Ra. split; [exact (creach_lt _ _ _ W (F _ Hr) Ra)|].
  intros d k Hd Rk Rd. destruct Ra as (l & Hl & Ra). eapply I; [exact Hr|exact Hd| |exact Rd].
  exists l. split; [exact Hl|exact (reach_trans _ _ _ _ Ra Rk)].
Qed.

(* ... hence they point into the SOURCE instance, never into a class default *)
Lemma upd_aliases_clean m s ov rec a : Inv s -> In rec (insts s) ->
  In a (flat_map paliases (upd_list m (hp s) ov rec)) -> clean s a.
Proof.
  intros HI Hr Ha. apply upd_list_aliases in Ha. apply in_flat_map in Ha as (p & Hp & Ha).
  apply in_map_iff in Hp as (v & <- & Hv). apply upd_p_alias in Ha.
  apply (creach_clean s rec a HI Hr). destruct v as [z|l]; [destruct Ha|]. exists l. auto.
Qed.

Lemma upd_deep_no_alias h ov rec : flat_map paliases (upd_list UDeep h ov rec) = [].
Proof.
  revert ov. induction rec as [|v r IH]; intros [|[z|] ro]; simpl; rewrite ?IH; auto;
    unfold deep_p; now rewrite of_tree_no_alias.
Qed.

(* What a step can do: nothing, append a newly allocated record, append an existing record once more (copy.copy),
   replace the target by a newly allocated record, or write in place below the target. *)
Inductive step_shape (c : cfg) (s : state) (o : op) : state -> Prop :=
| sh_same : step_shape c s o s
| sh_build ps : target o = None ->
    (parse_fresh c = true -> arg_fresh c = true -> flat_map paliases ps = []) -> step_shape c s o (build s ps)
| sh_share rec : target o = None -> mkcopy_deep c = false -> In rec (insts s) ->
    step_shape c s o (mkState (hp s) (dfl s) (insts s ++ [rec]))
| sh_update dst ov rec : target o = Some dst -> is_update o = true -> In rec (insts s) ->
    step_shape c s o (update_state (upd c) s dst ov rec)
| sh_write r s' : target o = Some r -> is_update o = false -> write_shape s s' r -> step_shape c s o s'.

Lemma step_cases c s o : step_shape c s o (step c s o).
Proof.
  destruct o as [fs|fs|r|r|dst src ov|r path k z|r path m]; try rewrite step_update; simpl.
  - apply sh_build; [reflexivity|]. intros _ ->. apply no_alias_fresh.
  - apply sh_build; [reflexivity|]. intros -> ->. apply no_alias_fresh.
  - destruct (nth_error (insts s) r) as [rec|] eqn:Er; [|apply sh_same]. destruct (mkcopy_deep c) eqn:MD.
    + apply sh_build; [reflexivity|]. intros _ _. apply no_alias_deep.
    + apply sh_share; auto. eapply nth_error_In; eauto.
  - destruct (nth_error (insts s) r) as [rec|]; [|apply sh_same].
    apply sh_build; [reflexivity|]. intros _ _. apply no_alias_deep.
  - destruct (nth_error (insts s) dst) as [rd|]; [|apply sh_same].
    destruct (nth_error (insts s) src) as [rec|] eqn:Es; [|apply sh_same].
    apply sh_update; auto. eapply nth_error_In; eauto.
  - eapply sh_write; [reflexivity|reflexivity|apply write_shape_ok].
  - eapply sh_write; [reflexivity|reflexivity|apply mutate_shape_ok].
Qed.

Lemma step_dfl c s o : dfl (step c s o) = dfl s.
Proof.
  destruct (step_cases c s o) as [|ps _ _|rec _ _ _|dst ov rec _ _ _|r s' _ _ Hw]; rewrite ?build_eq; try reflexivity.
  apply (write_shape_insts _ _ _ Hw).
Qed.

Lemma step_inv c s o : parse_fresh c = true -> arg_fresh c = true -> Inv s -> Inv (step c s o).
Proof.
  intros PF AF HI. destruct (step_cases c s o) as [|ps _ A|rec _ _ Hr|dst ov rec _ _ Hr|r s' _ _ Hw].
  - exact HI.
  - apply build_inv; auto. apply clean_nil; auto.
  - destruct HI as [W D F I]. constructor; simpl; auto.
    + intros x Hx. apply in_app_or in Hx as [Hx|[<-|[]]]; auto.
    + intros x d k Hx. apply in_app_or in Hx as [Hx|[<-|[]]]; eauto.
  - apply alloc_inv; auto.
    + intros a Ha. eapply upd_aliases_clean; eauto.
    + intros x Hx. apply in_set_nth in Hx. destruct Hx; auto.
  - eapply write_inv; eauto.
Qed.

(* an update keeps the instances separated if it copies deeply (that it must: update_shares) *)
Lemma step_sep c s o : parse_fresh c = true -> mkcopy_deep c = true -> arg_fresh c = true ->
  upd c = UDeep \/ is_update o = false -> Inv s -> Sep s -> Sep (step c s o).
Proof.
  intros PF MD AF U HI S. destruct (step_cases c s o) as [|ps _ A|rec _ MF _|dst ov rec _ IU Hr|r s' _ _ Hw].
  - exact S.
  - apply build_sep; auto.
  - congruence.
  - destruct U as [UD|NU]; [|congruence]. rewrite UD.
    apply (alloc_sep s _ _ dst); auto using upd_deep_no_alias.
    intros i ri Hn. apply nth_error_set_nth in Hn. destruct Hn as [[<- ->]|[N Hn]]; auto.
  - eapply write_sep; eauto.
Qed.

(* a step leaves alone every value that shares no cell with its target *)
Lemma step_value_frame c s o n v : parse_fresh c = true -> arg_fresh c = true -> Inv s -> vfits (length (hp s)) v ->
  (forall r rec t, target o = Some r -> nth_error (insts s) r = Some rec -> creach (hp s) rec t -> ~ vreach (hp s) v t) ->
  value_f n (hp (step c s o)) v = value_f n (hp s) v.
Proof.
  intros PF AF HI Fv N. destruct (step_cases c s o) as [|ps _ A|rec _ _ _|dst ov rec _ _ Hr|r s' T _ Hw].
  - reflexivity.
  - rewrite build_eq. apply alloc_values; auto. rewrite A by auto. intros a [].
  - reflexivity.
  - apply alloc_values; auto. intros a Ha. exact (proj1 (upd_aliases_clean _ _ _ _ _ HI Hr Ha)).
  - eapply write_value_frame; eauto.
Qed.

Lemma step_default_frame c s o : parse_fresh c = true -> arg_fresh c = true -> Inv s ->
  forall d n, In d (dfl s) -> value_f n (hp (step c s o)) (Ref d) = value_f n (hp s) (Ref d).
Proof.
  intros PF AF HI d n Hd. apply step_value_frame; auto.
  - exact (inv_dfl _ HI d Hd).
  - intros r rec t _ Er Rt Rd. exact (inv_iso _ HI rec d t (nth_error_In _ _ Er) Hd Rt Rd).
Qed.

(* a step moves no instance and changes the record of its target only *)
Lemma step_insts c s o : length (insts s) <= length (insts (step c s o)) /\
  forall r', target o <> Some r' -> r' < length (insts s) -> nth_error (insts (step c s o)) r' = nth_error (insts s) r'.
Proof.
  destruct (step_cases c s o) as [|ps _ _|rec _ _ _|dst ov rec T _ _|r s' T _ Hw]; rewrite ?build_eq; simpl;
    rewrite ?app_length, ?set_nth_length; auto using Nat.le_add_r.
  - split; [apply Nat.le_add_r|]. intros r' _ L. now apply nth_error_app1.
  - split; [apply Nat.le_add_r|]. intros r' _ L. now apply nth_error_app1.
  - split; [reflexivity|]. intros r' N _. apply nth_error_set_nth_ne. congruence.
  - destruct (write_shape_insts _ _ _ Hw) as (_ & _ & -> & E). split; [reflexivity|].
    intros r' N _. apply E. congruence.
Qed.

Lemma init_eq ds : init ds = mkState (fst (alloc_list (map of_tree ds) [])) (ref_locs (snd (alloc_list (map of_tree ds) []))) [].
Proof. unfold init. now destruct (alloc_list (map of_tree ds) []). Qed.

Lemma init_inv ds : Inv (init ds) /\ Sep (init ds).
Proof.
  rewrite init_eq. split.
  - assert (W0 : hwf []) by (intros l c j E; destruct l; discriminate).
    destruct (alloc_list_spec (map of_tree ds) [] W0) as (_ & W & F & _).
    { rewrite (no_alias_map of_tree ds of_tree_no_alias). intros a []. }
    constructor; simpl; auto.
    + intros d Hd. apply F. unfold ref_locs in Hd. apply in_flat_map in Hd as ([z|l] & Hv & Hd); simpl in Hd.
      * destruct Hd.
      * destruct Hd as [<-|[]]. exact Hv.
    + intros rec [].
  - intros i j ri rj k _ Hi. simpl in Hi. destruct i; discriminate.
Qed.

Lemma run_app c s ops rest : run c s (ops ++ rest) = run c (run c s ops) rest.
Proof. apply fold_left_app. Qed.

Lemma run_snoc c s ops o : run c s (ops ++ [o]) = step c (run c s ops) o.
Proof. apply run_app. Qed.

Lemma run_inv c : parse_fresh c = true -> arg_fresh c = true -> forall ops s, Inv s -> Inv (run c s ops).
Proof. intros PF AF; induction ops as [|o ops IH]; simpl; intros s HI; auto. apply IH. apply step_inv; auto. Qed.

Lemma run_dfl c : forall ops s, dfl (run c s ops) = dfl s.
Proof. induction ops as [|o ops IH]; simpl; intros s; auto. rewrite IH. apply step_dfl. Qed.

(* when may a history contain updates: always if update copies deeply, otherwise never *)
Lemma upd_ok_cons c o ops : upd c = UDeep \/ no_update (o :: ops) ->
  (upd c = UDeep \/ is_update o = false) /\ (upd c = UDeep \/ no_update ops).
Proof. intros [UD|NU]; [auto|]. apply andb_prop in NU as [N1 N2]. apply negb_true_iff in N1. auto. Qed.

Lemma run_sep c : parse_fresh c = true -> mkcopy_deep c = true -> arg_fresh c = true ->
  forall ops s, upd c = UDeep \/ no_update ops -> Inv s -> Sep s -> Sep (run c s ops).
Proof.
  intros PF MD AF; induction ops as [|o ops IH]; simpl; intros s U HI S; auto.
  apply upd_ok_cons in U as [Uo U]. apply IH; auto using step_inv, step_sep.
Qed.

Lemma run_default_frame c : parse_fresh c = true -> arg_fresh c = true -> forall ops s, Inv s ->
  forall d n, In d (dfl s) -> value_f n (hp (run c s ops)) (Ref d) = value_f n (hp s) (Ref d).
Proof.
  intros PF AF; induction ops as [|o ops IH]; simpl; intros s HI d n Hd; auto.
  rewrite IH; auto using step_inv.
  - apply step_default_frame; auto.
  - now rewrite step_dfl.
Qed.

Lemma pvalue_no_alias p : paliases p = [] -> forall n h h', pvalue n h p = pvalue n h' p.
Proof.
  induction p as [z|l|fs IH] using ptree_ind'; simpl; intros A n h h'; auto; try discriminate.
  destruct n; auto. f_equal. apply map_ext_in. intros p Hp. rewrite Forall_forall in IH.
  apply IH; auto. destruct (paliases p) as [|a r] eqn:E; auto.
  assert (In a (flat_map paliases fs)) by (apply in_flat_map; exists p; rewrite E; simpl; auto).
  rewrite A in H. destruct H.
Qed.

Lemma resolve_same s s0 : Inv s0 -> dfl s = dfl s0 -> length (hp s0) <= length (hp s) ->
  (forall d n, In d (dfl s0) -> value_f n (hp s) (Ref d) = value_f n (hp s0) (Ref d)) ->
  forall x, resolve true true s x = resolve true true s0 x.
Proof.
  intros HI0 ED L V. fix IH 1. intros [z|fs|k|k]; simpl; auto.
  (* XDefault and XArg: both copy default k deeply *)
  2,3: rewrite ED; destruct (nth_error (dfl s0) k) as [d|] eqn:E; auto;
    unfold deep_p; f_equal; apply nth_error_In in E; rewrite V by auto;
    apply value_f_mono; [apply HI0| |]; simpl; pose proof (inv_dfl _ HI0 d E); lia.
  f_equal. induction fs as [|f r IHr]; simpl; auto. now rewrite IH, IHr.
Qed.

Lemma last_values_build s ps n : Inv s -> flat_map paliases ps = [] ->
  last_values n (build s ps) = Some (map (pvalue n (hp s)) ps).
Proof.
  intros HI A. rewrite build_eq. unfold last_values, inst_values. simpl.
  rewrite app_length. simpl. replace (length (insts s) + 1 - 1) with (length (insts s)) by lia.
  rewrite nth_error_app2, Nat.sub_diag by lia. simpl. f_equal.
  destruct (alloc_list_spec ps (hp s) (inv_wf _ HI)) as (_ & _ & _ & _ & V); auto.
  rewrite A. intros a [].
Qed.

Lemma step_len c s o : length (hp s) <= length (hp (step c s o)).
Proof.
  destruct (step_cases c s o) as [|ps _ _|rec _ _ _|dst ov rec _ _ _|r s' _ _ Hw]; rewrite ?build_eq; simpl;
    auto using alloc_list_len.
  now rewrite (proj1 (proj2 (write_shape_insts _ _ _ Hw))).
Qed.

Lemma run_len c : forall ops s, length (hp s) <= length (hp (run c s ops)).
Proof.
  induction ops as [|o ops IH]; simpl; intros s; auto.
  eapply Nat.le_trans; [apply step_len|apply IH].
Qed.

(* SEPARATION FRAME: under separation, an operation aimed at one instance (or at none) -- construct, parse,
   copy, update, write, in-place list operation -- leaves the value of every other instance as it was. *)
Theorem separation_frame c s o r' n : parse_fresh c = true -> arg_fresh c = true -> Inv s -> Sep s ->
  target o <> Some r' -> r' < length (insts s) ->
  inst_values n (step c s o) r' = inst_values n s r'.
Proof.
  intros PF AF HI S T L. unfold inst_values. rewrite (proj2 (step_insts c s o)) by assumption.
  destruct (nth_error (insts s) r') as [rec'|] eqn:E; [|reflexivity]. simpl. f_equal.
  apply map_ext_in. intros v Hv. apply step_value_frame; auto.
  - pose proof (inv_fits _ HI _ (nth_error_In _ _ E)) as Fr. destruct v; simpl; auto.
  - intros r rec t Tr Er Rt Rv. destruct v as [z|l]; [exact Rv|].
    apply (S r' r rec' rec t); auto; [congruence|]. exists l; auto.
Qed.

Theorem reachable_inv c ds ops : parse_fresh c = true -> arg_fresh c = true -> Inv (run c (init ds) ops).
Proof. intros PF AF. apply run_inv; auto. apply init_inv. Qed.

Theorem reachable_sep c ds ops : parse_fresh c = true -> mkcopy_deep c = true -> arg_fresh c = true ->
  upd c = UDeep \/ no_update ops -> Sep (run c (init ds) ops).
Proof. intros PF MD AF U. apply run_sep; auto; apply init_inv. Qed.

Theorem defaults_constant c ds ops k n : parse_fresh c = true -> arg_fresh c = true ->
  default_value n (run c (init ds) ops) k = default_value n (init ds) k.
Proof.
  intros PF AF. unfold default_value. rewrite run_dfl.
  destruct (nth_error (dfl (init ds)) k) as [d|] eqn:E; simpl; auto. f_equal.
  apply run_default_frame; auto. apply init_inv. eapply nth_error_In; eauto.
Qed.

Theorem new_constant c ds ops fs n : parse_fresh c = true -> arg_fresh c = true ->
  last_values n (step c (run c (init ds) ops) (ONew fs)) = last_values n (step c (init ds) (ONew fs)).
Proof.
  intros PF AF. simpl. rewrite AF. set (s0 := init ds). set (s := run c s0 ops).
  assert (HI0 : Inv s0) by apply init_inv.
  assert (HI : Inv s) by (apply run_inv; auto).
  rewrite !last_values_build by auto using no_alias_fresh. f_equal.
  rewrite !map_map. apply map_ext. intros x.
  rewrite (resolve_same s s0); auto.
  - apply pvalue_no_alias. apply resolve_fresh_no_alias.
  - apply run_dfl.
  - apply run_len.
  - intros d m Hd. apply run_default_frame; auto.
Qed.

(* update_from_other_container copies one level only: unless it copies deeply, the history must not contain one *)
Theorem instances_independent c ds ops o r' n : parse_fresh c = true -> mkcopy_deep c = true -> arg_fresh c = true ->
  upd c = UDeep \/ no_update ops -> target o <> Some r' -> r' < length (insts (run c (init ds) ops)) ->
  inst_values n (step c (run c (init ds) ops) o) r' = inst_values n (run c (init ds) ops) r'.
Proof. intros PF MD AF U T L. apply separation_frame; auto using reachable_inv, reachable_sep. Qed.

(* today's parse: the absent member IS the class default; writing through the parsed instance changes
   the default, and with it every instance constructed later *)
Definition wit_parse_ds : list tree := [TNode [TImm 1; TImm 2]].
Definition wit_parse_ops : list op := [OParse [XImm 5; XDefault 0]; OWrite 0 [1] 0 7].

Lemma parse_default_refuted :
  default_value 3 (run today (init wit_parse_ds) wit_parse_ops) 0 = Some (TNode [TImm 7; TImm 2]) /\
  default_value 3 (init wit_parse_ds) 0 = Some (TNode [TImm 1; TImm 2]) /\
  last_values 3 (step today (run today (init wit_parse_ds) wit_parse_ops) (ONew [XImm 0; XDefault 0]))
    = Some [TImm 0; TNode [TImm 7; TImm 2]] /\
  check_C12 today wit_parse_ds wit_parse_ops = false /\
  check_C12 fixed wit_parse_ds wit_parse_ops = true.
Proof. vm_compute. repeat split. Qed.

(* today's mk_copy (copy.copy): a nested write on the copy changes the original *)
Definition wit_copy_ops : list op := [ONew [XImm 5; XDefault 0]; OCopy 0; OWrite 1 [1] 0 7].

Lemma shallow_refuted :
  inst_values 3 (run today (init wit_parse_ds) wit_copy_ops) 0 = Some [TImm 5; TNode [TImm 7; TImm 2]] /\
  inst_values 3 (run fixed (init wit_parse_ds) wit_copy_ops) 0 = Some [TImm 5; TNode [TImm 1; TImm 2]] /\
  check_C12 today wit_parse_ds wit_copy_ops = false /\
  check_C12 fixed wit_parse_ds wit_copy_ops = true.
Proof. vm_compute. repeat split. Qed.

(* update_from_other_container copies one level only (unchanged by the repairs): below that level source
   and destination share -- this is why [instances_independent] excludes OUpdate from the history *)
Definition wit_update_ops : list op :=
  [ONew [XNode [XNode [XImm 1]]]; ONew [XNode []]; OUpdate 1 0 []; OWrite 1 [0; 0] 0 9].

Lemma update_shares :
  inst_values 4 (run fixed (init []) wit_update_ops) 0 = Some [TNode [TNode [TImm 9]]] /\
  check_C12 fixed [] wit_update_ops = false.
Proof. vm_compute. repeat split. Qed.

(* update that hands the member objects over by reference (lists are not XMLTypeBase values): an in-place
   append on the destination's list shows up in the source *)
Definition wit_byref_ops : list op :=
  [ONew [XNode [XImm 1]]; ONew [XNode []]; OUpdate 1 0 []; OMut 1 [0] (MAppend 9)].

Lemma update_byref_refuted :
  inst_values 3 (run byref_update (init []) wit_byref_ops) 0 = Some [TNode [TImm 1; TImm 9]] /\
  inst_values 3 (run fixed (init []) wit_byref_ops) 0 = Some [TNode [TImm 1]] /\
  check_C12 byref_update [] wit_byref_ops = false /\
  check_C12 fixed [] wit_byref_ops = true.
Proof. vm_compute. repeat split. Qed.

(* a constructor that stores its mutable default ARGUMENT: all instances built without that argument hold the
   one list object; an in-place append on one changes the others, every later cls() and the default itself *)
Definition wit_arg_ds : list tree := [TNode []].
Definition wit_arg_ops : list op := [ONew [XImm 5; XArg 0]; ONew [XImm 6; XArg 0]; OMut 0 [1] (MAppend 7)].

Lemma shared_arg_refuted :
  inst_values 3 (run shared_arg (init wit_arg_ds) wit_arg_ops) 1 = Some [TImm 6; TNode [TImm 7]] /\
  default_value 3 (run shared_arg (init wit_arg_ds) wit_arg_ops) 0 = Some (TNode [TImm 7]) /\
  last_values 3 (step shared_arg (run shared_arg (init wit_arg_ds) wit_arg_ops) (ONew [XImm 0; XArg 0]))
    = Some [TImm 0; TNode [TImm 7]] /\
  last_values 3 (step shared_arg (init wit_arg_ds) (ONew [XImm 0; XArg 0])) = Some [TImm 0; TNode []] /\
  check_C12 shared_arg wit_arg_ds wit_arg_ops = false /\
  check_C12 fixed wit_arg_ds wit_arg_ops = true.
Proof. vm_compute. repeat split. Qed.
