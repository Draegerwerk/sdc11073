(* C18 -- the arithmetic of the binary64-faithful xsd:duration parser (Scalars/Duration.v, parse_duration_f):
   the timedelta microsecond count is within 0.75 us of the exact decimal value for a fraction of any length
   (exact up to six fraction digits), the float made of it is within 1 us. *)
From Coq Require Import List ZArith Bool Lia ZifyBool String Ascii.
From SDC Require Import Scalars.Lex Scalars.Lex_Proofs Scalars.Timestamp Scalars.Timestamp_Proofs Scalars.Decimal Scalars.Decimal_Proofs Scalars.Duration Scalars.Duration_Proofs.
Import ListNotations.
Open Scope Z_scope.

(* the core on an arbitrary exact value n / D with n / D <= 2^31 *)
Lemma td_float_us_core : forall n D, 0 <= n -> 0 < D -> n <= 2 ^ 31 * D ->
  let u := td_float_us (rnd53 n D) in
  0 <= u /\ - (3 * D) <= 4 * (u * D - n * 1000000) <= 3 * D.
Proof.
  intros n D Hn HD Hr u. subst u. unfold td_float_us.
  destruct (rnd53_spec n D Hn HD) as (a & b & -> & Hb & Ha & H1). cbn [fst snd].
  destruct (divmod_nonneg a b Ha Hb) as (E & B & Hip).
  set (ip := a / b) in *. set (r := a mod b) in *. clearbody ip r.
  destruct (rnd53_spec (r * 1000000) b ltac:(lia) Hb) as (pa & pb & -> & Hpb & Hpa & H2). cbn [fst snd].
  pose proof (rne_div_bounds pa pb Hpb) as H3.
  pose proof (rne_div_nonneg pa pb Hpb Hpa) as Hk.
  set (k := rne_div pa pb) in *. clearbody k.
  split; [lia|].
  (* over the common denominator D * b * pb the error is the sum of
       10^6 pb (a D - n b)        at most 10^6 * 2^-22 of it (first rounding, n / D <= 2^31),
       D b (k pb - pa)            at most 1/2 of it (rounding to an integer),
       D (pa b - r 10^6 pb)       at most 10^6 * 2^-53 of it (second rounding, r < b) *)
  apply (band_scale pb) in H1; [|lia].
  apply (Z.mul_le_mono_nonneg_r _ _ (b * pb)) in Hr; [|lia].
  apply (band_scale (D * b)) in H3; [|lia].
  apply (band_scale D) in H2; [|lia].
  assert (B' : r * (D * pb) <= b * (D * pb)) by (apply Z.mul_le_mono_nonneg_r; lia).
  apply (f_equal (fun z => z * (D * pb))) in E.
  split; apply (Z.mul_le_mono_pos_r _ _ (b * pb)); lia.
Qed.

(* an exact value within a quarter microsecond of a whole number K of microseconds gives K: the count is
   within 3/4 us of the exact value, so less than 1 from K *)
Lemma td_float_us_near : forall n D K, 0 <= n -> 0 < D -> n <= 2 ^ 31 * D ->
  - D < 4 * (K * D - n * 1000000) < D -> td_float_us (rnd53 n D) = K.
Proof.
  intros n D K Hn HD Hr E. destruct (td_float_us_core n D Hn HD Hr) as [_ UB]. cbv zeta in UB. nia.
Qed.

(* in particular up to six fraction digits nothing is rounded *)
Lemma td_float_us_exact6 : forall d f, all_digits d = true -> all_digits f = true -> len f <= 6 ->
  digits_val d < 2 ^ 31 ->
  td_float_us (sec_float d f) = digits_val d * 1000000 + digits_val f * 10 ^ (6 - len f).
Proof.
  intros d f Hd Hf L6 Hr. unfold sec_float. rewrite digits_val_app. fold (len f).
  pose proof (len_nonneg f) as L0. pose proof (pow10_pos (len f) L0) as HD.
  destruct (digits_val_bound f Hf) as [F0 Flt]. destruct (digits_val_bound d Hd) as [D0 _].
  apply td_float_us_near; [nia|exact HD|nia|].
  replace 1000000 with (10 ^ len f * 10 ^ (6 - len f)); [lia|].
  rewrite <- Z.pow_add_r by lia. replace (len f + (6 - len f)) with 6 by lia. reflexivity.
Qed.

Lemma optval_nonneg : forall o, wf_fld o -> 0 <= optval o.
Proof. intros [d|] W; cbn [optval]; [|lia]. destruct W as [A _]. now apply digits_val_bound. Qed.

(* the microsecond count of the three groups is within 0.75 us of their exact value *)
Lemma dur_total_us_close : forall oh om os, wf_fld oh -> wf_fld om -> wf_secs os ->
  let N := fst (dur_exact_us oh om os) in let D := snd (dur_exact_us oh om os) in
  N <= 2 ^ 31 * 1000000 * D ->
  0 <= dur_total_us oh om os /\ 0 < D /\ - (3 * D) <= 4 * (dur_total_us oh om os * D - N) <= 3 * D.
Proof.
  intros oh om os Wh Wm Ws. unfold dur_total_us, dur_exact_us.
  pose proof (optval_nonneg oh Wh) as Hh. pose proof (optval_nonneg om Wm) as Hm.
  assert (HM : 0 <= optval oh * 3600000000 + optval om * 60000000) by lia.
  revert HM. generalize (optval oh * 3600000000 + optval om * 60000000). intros HM HM0.
  destruct os as [[d f]|]; cbn [fst snd]; [|lia].
  destruct Ws as (Ad & _ & Af). intros HN. unfold sec_float.
  assert (Hn : 0 <= digits_val (d ++ f)) by (apply digits_val_bound, all_digits_app; auto).
  pose proof (pow10_pos (len f) (len_nonneg f)) as HD.
  revert Hn HD HN. generalize (digits_val (d ++ f)) (10 ^ len f). intros n D Hn HD HN.
  assert (0 <= HM * D) by (apply Z.mul_nonneg_nonneg; lia).
  destruct (td_float_us_core n D Hn HD) as [U0 UB]; [lia|]. cbv zeta in *. lia.
Qed.

(* the microsecond count of a form with a seconds group, from the three groups and the count K of the seconds *)
Lemma duration_to_py_us_secs : forall s h m d f K, dur_fields (chars s) = Some (h, m, Some (d, f)) ->
  td_float_us (sec_float d f) = K -> optval h * 3600000000 + optval m * 60000000 + K < max_us ->
  duration_to_py_us s = optval h * 3600000000 + optval m * 60000000 + K.
Proof.
  intros s h m d f K F <- U. unfold duration_to_py_us, parse_duration_f. rewrite F. cbv zeta.
  apply Z.leb_gt in U. unfold dur_total_us. now rewrite U.
Qed.

(* int / 10**6 of a microsecond count that is within 0.75 us of N / D <= 2^31 s *)
Lemma float_of_us_1us : forall u N D, 0 <= u -> 0 < D -> N <= 2 ^ 31 * 1000000 * D ->
  - (3 * D) <= 4 * (u * D - N) <= 3 * D ->
  let x := rnd53 u 1000000 in
  u <= 2 ^ 31 * 1000000 /\ 0 < snd x /\ - (snd x * D) < fst x * D * 1000000 - N * snd x < snd x * D.
Proof.
  intros u N D Hu HD HN HW x. subst x.
  destruct (rnd53_spec u 1000000 Hu eq_refl) as (a & b & -> & Hb & _ & H). cbn [fst snd].
  assert (HU : u <= 2 ^ 31 * 1000000) by nia.
  split; [exact HU|]. split; [exact Hb|].
  (* a D 10^6 - N b = D (a 10^6 - u b) + b (u D - N): at most 10^6 * 2^-22 and 3/4 of b D *)
  apply (band_scale D) in H; [|lia].
  apply (band_scale b) in HW; [|lia].
  apply (Z.mul_le_mono_nonneg_r _ _ (b * D)) in HU; [|lia].
  lia.
Qed.

