(* C18 -- proofs about the timestamp model: what [rnd53] guarantees (rnd53_spec: relative error 2^-53),
   sub-millisecond py -> xml -> py.  Proofs about two or three roundings put everything over the common
   denominator (band_scale), after which the claim is linear. *)
From Coq Require Import ZArith Lia QArith.
From SDC Require Import Scalars.Lex Scalars.Timestamp.
Open Scope Z_scope.

Lemma rne_div_bounds : forall num den, 0 < den ->
  - den <= 2 * (rne_div num den * den - num) <= den.
Proof.
  intros num den Hd. unfold rne_div.
  pose proof (Z.div_mod num den ltac:(lia)) as E.
  pose proof (Z.mod_pos_bound num den Hd) as B.
  set (q := num / den) in *. set (r := num mod den) in *.
  destruct (Z.ltb_spec (2 * r) den); [lia|].
  destruct (Z.ltb_spec den (2 * r)); [lia|].
  destruct (Z.even q); lia.
Qed.

Lemma rne_div_unique : forall num den n, 0 < den ->
  - den < 2 * (n * den - num) < den -> rne_div num den = n.
Proof.
  intros num den n Hd H. unfold rne_div.
  pose proof (Z.div_mod num den ltac:(lia)) as E.
  pose proof (Z.mod_pos_bound num den Hd) as B.
  set (q := num / den) in *. set (r := num mod den) in *.
  assert (K : n = q \/ n = q + 1) by nia.
  destruct (Z.ltb_spec (2 * r) den).
  - destruct K; [lia|]. subst n. nia.
  - destruct K as [K|K]; subst n; [nia|].
    destruct (Z.ltb_spec den (2 * r)); [lia|]. nia.
Qed.

Lemma rne_div_nonneg : forall num den, 0 < den -> 0 <= num -> 0 <= rne_div num den.
Proof. intros num den Hd Hn. pose proof (rne_div_bounds num den Hd). nia. Qed.

Lemma band_scale : forall c l x u, 0 <= c -> l <= x <= u -> l * c <= x * c <= u * c.
Proof. intros c l x u Hc [L U]. split; apply Z.mul_le_mono_nonneg_r; assumption. Qed.

Lemma div_band : forall a q lo hi, 0 < q -> lo <= a / q < hi -> q * lo <= a < q * hi.
Proof.
  intros a q lo hi Hq [L U].
  pose proof (Z.mul_div_le a q Hq). pose proof (Z.mul_succ_div_gt a q Hq). nia.
Qed.

(* the scaled numerator P = p * 2^S lies in the 53-bit band of the scaled denominator q * 2^t *)
Lemma rnd53_scale : forall p q, 0 < p -> 0 < q ->
  let S := Z.log2 q + 53 in
  let P := p * 2 ^ S in
  let t := Z.log2 (P / q) - 52 in
  0 < 2 ^ S /\ 0 < 2 ^ t /\ q * 2 ^ t * 2 ^ 52 <= P < q * 2 ^ t * 2 ^ 53.
Proof.
  intros p q Hp Hq S. pose proof (Z.log2_nonneg q) as Hl.
  assert (HS : 0 < 2 ^ S) by (apply Z.pow_pos_nonneg; lia). intros P t.
  (* P >= 2^S = 2^(log2 q + 1) * 2^52 > q * 2^52 *)
  assert (HQ : 2 ^ 52 <= P / q).
  { apply Z.div_le_lower_bound; [exact Hq|].
    destruct (Z.log2_spec q Hq) as [_ Hq2].
    unfold P, S. replace (Z.log2 q + 53) with (Z.succ (Z.log2 q) + 52) by lia.
    rewrite Z.pow_add_r by lia. set (c := 2 ^ 52). assert (0 < c) by reflexivity. nia. }
  assert (Ht : 0 <= t) by (apply Z.log2_le_pow2 in HQ; lia).
  destruct (Z.log2_spec (P / q)) as [L1 L2]; [lia|].
  replace (Z.log2 (P / q)) with (t + 52) in L1 by lia.
  replace (Z.succ (Z.log2 (P / q))) with (t + 53) in L2 by lia.
  rewrite Z.pow_add_r in L1, L2 by lia.
  split; [exact HS|]. split; [apply Z.pow_pos_nonneg; lia|].
  rewrite <- !Z.mul_assoc. apply div_band; [exact Hq|]. auto.
Qed.

(* what rounding to 53 bits gives, on variables: m = rne (P / D) with P in the 53-bit band of D; c stands for 2^52 *)
Lemma mant_band : forall m D P c, 0 < D -> D * c <= P < D * (2 * c) ->
  - D <= 2 * (m * D - P) <= D ->
  c <= m <= 2 * c /\ - P <= (m * D - P) * (2 * c) <= P.
Proof. intros m D P c HD B R. split; split; nia. Qed.

(* rnd53 p q = m * 2^t / 2^S with the mantissa m = rnd53_mant p q in [2^52, 2^53] (2^53 when rounding carries)
   and m * 2^t / 2^S within 2^-53 of p / q, relatively *)
Lemma rnd53_mant_spec : forall p q, 0 < p -> 0 < q ->
  let S := Z.log2 q + 53 in
  let P := p * 2 ^ S in
  let t := Z.log2 (P / q) - 52 in
  rnd53 p q = (rnd53_mant p q * 2 ^ t, 2 ^ S) /\ 0 < 2 ^ S /\ 0 < 2 ^ t /\
  2 ^ 52 <= rnd53_mant p q <= 2 ^ 53 /\
  - P <= (rnd53_mant p q * (q * 2 ^ t) - P) * 2 ^ 53 <= P.
Proof.
  intros p q Hp Hq. destruct (rnd53_scale p q Hp Hq) as (HS & Ht & B).
  unfold rnd53, rnd53_mant. cbv zeta in *.
  replace (p =? 0) with false by lia.
  set (S := Z.log2 q + 53) in *. set (P := p * 2 ^ S) in *. set (t := Z.log2 (P / q) - 52) in *.
  assert (HD : 0 < q * 2 ^ t) by lia.
  split; [reflexivity|]. split; [exact HS|]. split; [exact Ht|].
  apply (mant_band _ _ _ (2 ^ 52)); [exact HD|exact B|]. apply rne_div_bounds, HD.
Qed.

(* rnd53 p q = a / b with |a/b - p/q| <= (p/q) * 2^-53, written without division *)
Lemma rnd53_spec : forall p q, 0 <= p -> 0 < q ->
  exists a b, rnd53 p q = (a, b) /\ 0 < b /\ 0 <= a /\
    - (p * b) <= (a * q - p * b) * 2 ^ 53 <= p * b.
Proof.
  intros p q Hp Hq. destruct (Z.eq_dec p 0) as [->|Hp0]; [exists 0, 1; split; [reflexivity|lia]|].
  destruct (rnd53_mant_spec p q ltac:(lia) Hq) as (-> & HS & Ht & [M _] & E). cbv zeta in *.
  eexists _, _. split; [reflexivity|]. split; [exact HS|]. split; [lia|].
  rewrite <- Z.mul_assoc, (Z.mul_comm (2 ^ _) q). exact E.
Qed.

(* x = a/b >= 0 with 1000 x <= 2^50;  x' = to_py (to_xml x) = a3/b3;  |x' - x| < 1/1000 *)
Lemma ts_py_xml_py : forall a b, 0 <= a -> 0 < b -> a * 1000 <= 2 ^ 50 * b ->
  let x' := ts_to_py (ts_to_xml (a, b)) in
  0 < snd x' /\ - (b * snd x') < (fst x' * b - a * snd x') * 1000 < b * snd x'.
Proof.
  intros a b Ha Hb Hr x'. subst x'.
  unfold ts_to_py, ts_to_xml, mul1000, round_fr. cbn [fst snd].
  destruct (rnd53_spec (a * 1000) b ltac:(lia) Hb) as (a2 & b2 & -> & Hb2 & Ha2 & H2). cbn [fst snd].
  pose proof (rne_div_bounds a2 b2 Hb2) as HR.
  pose proof (rne_div_nonneg a2 b2 Hb2 Ha2) as HN.
  set (N := rne_div a2 b2) in *.
  destruct (rnd53_spec N 1000 HN ltac:(lia)) as (a3 & b3 & -> & Hb3 & _ & H3). cbn [fst snd].
  split; [exact Hb3|].
  (* over the common denominator b * b2 * b3 everything is linear *)
  apply (Z.mul_le_mono_nonneg_r _ _ (b2 * b3)) in Hr; [|lia].
  apply (band_scale b3) in H2; [|lia].
  apply (band_scale (b * b3)) in HR; [|lia].
  apply (band_scale (b * b2)) in H3; [|lia].
  split; apply (Z.mul_lt_mono_pos_r b2 _ _ Hb2); lia.
Qed.

(* a fraction as a rational, to state the same with |x' - x| < 1/1000 *)
Definition frQ (x : Z * Z) : Q := Qmake (fst x) (Z.to_pos (snd x)).

