(* C18 -- proofs about the xsd:dateTime / date / gYearMonth / gYear model (Scalars/DateTime.v):
   py -> xml -> py round trip for every valid value (any year, seconds at microsecond resolution)
   and the specification of the boolean checker twin. *)
From Coq Require Import List ZArith NArith Bool Lia ZifyBool Ascii String.
From SDC Require Import Scalars.Lex Scalars.Lex_Proofs Scalars.Timestamp Scalars.Decimal Scalars.Decimal_Proofs Scalars.Duration
  Scalars.Duration_Proofs Scalars.DateTime.
Import ListNotations.
Open Scope Z_scope.

Lemma digits_val_two : forall a b, digits_val [a; b] = digit_val a * 10 + digit_val b.
Proof. intros. unfold digits_val. cbn [fold_left]. lia. Qed.

Lemma pad_spec : forall w n, 0 <= n -> all_digits (pad w n) = true /\ digits_val (pad w n) = n.
Proof. intros w n H. apply zeros_digits_of, H. Qed.

Lemma pad_len : forall w n, 0 < w -> n < 10 ^ w -> len (pad w n) = w.
Proof.
  intros w n Hw H. pose proof (len_digits_of n w Hw H) as L. unfold pad.
  rewrite len_app, len_zeros; lia.
Qed.

Lemma pad2_shape : forall n, 0 <= n < 100 ->
  exists a b, pad 2 n = [a; b] /\ is_digit a = true /\ is_digit b = true /\ digit_val a * 10 + digit_val b = n.
Proof.
  intros n H. destruct (pad_spec 2 n ltac:(lia)) as [A V].
  pose proof (pad_len 2 n eq_refl ltac:(lia)) as L.
  destruct (pad 2 n) as [|a [|b [|c r]]]; unfold len in L; cbn [List.length] in L; try lia.
  exists a, b. unfold all_digits in A. cbn [forallb] in A. rewrite digits_val_two in V.
  repeat split; lia.
Qed.

(* [year_ok] and, below, [after_year] are word for word the year test of parse_dt and everything parse_dt does after
   the year digits, named so that lemmas can mention them; parse_dt_digits links them to parse_dt by unfolding *)
Definition year_ok (yd : list ascii) : bool :=
  (len yd =? 4) || ((4 <? len yd) && negb (match yd with c :: _ => is_zero_char c | [] => true end)).

Lemma pad4_year : forall n, 0 <= n ->
  exists c r, pad 4 n = c :: r /\ all_digits (c :: r) = true /\ digits_val (c :: r) = n /\ year_ok (c :: r) = true.
Proof.
  intros n H. destruct (pad_spec 4 n H) as [A V].
  destruct (Z.lt_ge_cases n 10000) as [L|L].
  - pose proof (pad_len 4 n eq_refl ltac:(lia)) as P.
    destruct (pad 4 n) as [|c r] eqn:E; [unfold len in P; simpl in P; lia|].
    exists c, r. repeat split; auto. unfold year_ok. rewrite P. reflexivity.
  - destruct (digits_of_spec n H) as [A' [_ V']]. destruct (digits_val_bound _ A') as [_ B]. rewrite V' in B.
    assert (G : 4 < len (digits_of n)).
    { destruct (Z.lt_ge_cases 4 (len (digits_of n))) as [G|G]; [exact G|]. exfalso.
      pose proof (len_nonneg (digits_of n)) as L0.
      assert (10 ^ len (digits_of n) <= 10 ^ 4) by (apply Z.pow_le_mono_r; lia). lia. }
    destruct (digits_of_head n ltac:(lia)) as (c & r & E & Z0).
    assert (P : pad 4 n = c :: r).
    { unfold pad, zeros. replace (Z.to_nat (4 - len (digits_of n))) with 0%nat by lia. exact E. }
    rewrite P in A, V. exists c, r. repeat split; auto.
    unfold year_ok. rewrite <- E, Z0. lia.
Qed.

Lemma two_in_pad : forall lo hi n r, 0 <= n < 100 -> lo <= n <= hi ->
  two_in lo hi (pad 2 n ++ r) = Some (n, r).
Proof.
  intros lo hi n r H B. destruct (pad2_shape n H) as (a & b & E & Da & Db & V). rewrite E.
  cbn [app]. unfold two_in, two_digits. rewrite Da, Db, V. cbn [andb].
  replace ((lo <=? n) && (n <=? hi)) with true by lia. reflexivity.
Qed.

Lemma expect_cons : forall c r, expect c (c :: r) = Some r.
Proof. intros. cbn [expect]. now rewrite ceq_refl. Qed.

Lemma dash_two_pad : forall lo hi n r, 0 <= n < 100 -> lo <= n <= hi ->
  dash_two lo hi ("-"%char :: pad 2 n ++ r) = Some (n, r).
Proof. intros. unfold dash_two. rewrite expect_cons. now apply two_in_pad. Qed.

Inductive tzshape : list ascii -> Prop :=
| ts_nil : tzshape []
| ts_z : tzshape ["Z"%char]
| ts_off : forall sg a b c d, sg = "+"%char \/ sg = "-"%char -> is_digit a = true -> is_digit b = true ->
    tzshape [sg; a; b; ":"%char; c; d].

Lemma tz_chars_shape : forall tz, in_range (-840) 840 tz = true -> tzshape (tz_chars tz).
Proof.
  intros [off|] H; [|constructor]. unfold in_range in H. unfold tz_chars.
  destruct (Z.eqb_spec off 0) as [->|N]; [constructor|].
  assert (Hh : 0 <= Z.abs off / 60 < 100).
  { split; [apply Z.div_pos; lia|apply Z.div_lt_upper_bound; lia]. }
  pose proof (Z.mod_pos_bound (Z.abs off) 60 ltac:(lia)) as Hm.
  destruct (pad2_shape _ Hh) as (a & b & E & Da & Db & _).
  destruct (pad2_shape (Z.abs off mod 60) ltac:(lia)) as (c & d & E' & _).
  rewrite E, E'. cbn [app]. constructor; auto. destruct (0 <=? off); auto.
Qed.

Lemma tz_end_chars : forall tz, in_range (-840) 840 tz = true -> tz_end (tz_chars tz) = Match tz.
Proof.
  intros [off|] H; [|reflexivity]. unfold in_range in H. unfold tz_chars.
  destruct (Z.eqb_spec off 0) as [->|N]; [reflexivity|].
  pose proof (Z.div_mod (Z.abs off) 60 ltac:(lia)) as DM.
  assert (Hh : 0 <= Z.abs off / 60 <= 14).
  { split; [apply Z.div_pos; lia|]. assert (Z.abs off / 60 < 15) by (apply Z.div_lt_upper_bound; lia). lia. }
  pose proof (Z.mod_pos_bound (Z.abs off) 60 ltac:(lia)) as Hm.
  set (hh := Z.abs off / 60) in *. set (mm := Z.abs off mod 60) in *.
  unfold tz_end, parse_tz.
  assert (S1 : forall (b : bool), ceq (if b then "+"%char else "-"%char) "Z"%char = false) by (intros []; reflexivity).
  assert (S2 : forall (b : bool), ceq (if b then "+"%char else "-"%char) "+"%char
                                  || ceq (if b then "+"%char else "-"%char) "-"%char = true) by (intros []; reflexivity).
  rewrite S1, S2.
  rewrite two_in_pad, expect_cons by lia.
  rewrite <- (app_nil_r (pad 2 mm)). rewrite two_in_pad by lia.
  replace ((hh =? 14) && negb (mm =? 0)) with false by lia. cbn [at_end].
  f_equal. f_equal. destruct (Z.leb_spec 0 off); [change (ceq "+" "-") with false|change (ceq "-" "-") with true]; cbv iota; lia.
Qed.

(* what follows the date / time fields is empty or starts with "Z", "+" or "-" *)
Lemma tzshape_sep : forall T, tzshape T -> stops is_digit T /\ stops is_dot T.
Proof. intros T [| |sg a b c d [->| ->] _ _]; split; reflexivity. Qed.

Lemma tzshape_time_part : forall T, tzshape T -> time_part T = None.
Proof. intros T [| |sg a b c d [->| ->] _ _]; reflexivity. Qed.

(* "-HH" of a negative offset may be taken for a month or a day: the rest then starts with a colon *)
Lemma tzshape_dash_two : forall lo hi T, tzshape T ->
  dash_two lo hi T = None \/ exists n c d, dash_two lo hi T = Some (n, [":"%char; c; d]).
Proof.
  intros lo hi T [| |sg a b c d [->| ->] Da Db]; try (left; reflexivity).
  unfold dash_two. rewrite expect_cons.
  unfold two_in, two_digits. rewrite Da, Db. cbn [andb].
  destruct ((lo <=? digit_val a * 10 + digit_val b) && (digit_val a * 10 + digit_val b <=? hi)); eauto.
Qed.

Lemma parse_second_chars : forall us R, 0 <= us < 60000000 ->
  stops is_digit R -> stops is_dot R ->
  parse_second (seconds_chars us ++ R) = Some (Some us, R).
Proof.
  intros us R H S1 S2. unfold seconds_chars, parse_second.
  pose proof (Z.div_mod us 1000000 ltac:(lia)) as DM.
  pose proof (Z.mod_pos_bound us 1000000 ltac:(lia)) as Hf.
  assert (Hs : 0 <= us / 1000000 < 60).
  { split; [apply Z.div_pos; lia|apply Z.div_lt_upper_bound; lia]. }
  set (s := us / 1000000) in *. set (f := us mod 1000000) in *.
  rewrite <- app_assoc. rewrite two_in_pad by lia.
  destruct (Z.ltb_spec 0 f) as [P|P].
  - pose proof (fraction_spec f ltac:(lia)) as FS. cbv zeta in FS.
    set (F := rstrip0 (zfill6 (digits_of f))) in *. destruct FS as (A & N & L & V).
    cbn [app]. change (is_dot ".") with true. cbv iota.
    rewrite (span_exact is_digit F R A S1).
    destruct F as [|c0 F0] eqn:EF; [congruence|]. cbn [is_nil]. rewrite <- EF in *.
    replace (6 <? len F) with false by lia. f_equal. f_equal. f_equal. lia.
  - assert (f = 0) by lia. cbn [app].
    destruct R as [|c r]; [|cbn in S2; rewrite S2]; f_equal; f_equal; f_equal; lia.
Qed.

Lemma parse_eod_chars : forall T, tzshape T -> parse_eod (chars "24:00:00" ++ T) = Some T.
Proof. intros T [| |sg a b c d [->| ->] _ _]; reflexivity. Qed.

Lemma time_part_eod : forall T, tzshape T -> time_part (chars "T24:00:00" ++ T) = Some (Some None, true, T).
Proof.
  intros T H. change (chars "T24:00:00" ++ T) with ("T"%char :: chars "24:00:00" ++ T).
  unfold time_part. rewrite expect_cons.
  change (two_in 0 23 (chars "24:00:00" ++ T)) with (@None (Z * list ascii)). cbv iota.
  now rewrite parse_eod_chars.
Qed.

Lemma time_part_time : forall h mi us T, 0 <= h <= 23 -> 0 <= mi <= 59 -> 0 <= us < 60000000 -> tzshape T ->
  time_part (("T"%char :: pad 2 h ++ ":"%char :: pad 2 mi ++ ":"%char :: seconds_chars us) ++ T)
  = Some (Some (Some (h, mi, us)), false, T).
Proof.
  intros h mi us T Hh Hm Hu HT.
  cbn [app]. rewrite <- app_assoc. cbn [app]. rewrite <- app_assoc. cbn [app].
  unfold time_part. rewrite expect_cons, two_in_pad, expect_cons, two_in_pad, expect_cons by lia.
  rewrite parse_second_chars by (try apply tzshape_sep; assumption). reflexivity.
Qed.

Definition after_year (y : Z) (r1 : list ascii) : dtres :=
  let alt_year := bind_alt (tz_end r1) (fun tz => DtOk (y, None, None, None, false, tz)) DtReject in
  match dash_two 1 12 r1 with
  | Some (mo, r2) =>
      let alt_month := bind_alt (tz_end r2) (fun tz => DtOk (y, Some mo, None, None, false, tz)) alt_year in
      match dash_two 1 31 r2 with
      | Some (d, r3) =>
          let alt_day := bind_alt (tz_end r3) (fun tz => DtOk (y, Some mo, Some d, None, false, tz)) alt_month in
          match time_part r3 with
          | Some (Some t, eod, r4) =>
              bind_alt (tz_end r4) (fun tz => DtOk (y, Some mo, Some d, t, eod, tz)) alt_day
          | Some (None, _, r4) =>
              bind_alt (tz_end r4) (fun _ => DtUnmodelled) alt_day
          | None => alt_day
          end
      | None => alt_month
      end
  | None => alt_year
  end.

Lemma parse_dt_digits : forall (neg : bool) c yd R, all_digits (c :: yd) = true -> year_ok (c :: yd) = true ->
  stops is_digit R ->
  parse_dt ((if neg then ["-"%char] else []) ++ (c :: yd) ++ R)
  = after_year (if neg then - digits_val (c :: yd) else digits_val (c :: yd)) R.
Proof.
  intros neg c yd R A Y HR. unfold parse_dt, year_ok in *.
  pose proof (proj1 (andb_prop _ _ A)) as Dc.
  destruct neg; cbn [app].
  - change (ceq "-" "-") with true. cbv iota.
    change (c :: yd ++ R) with ((c :: yd) ++ R). rewrite (span_exact is_digit (c :: yd) R A HR).
    rewrite Y. reflexivity.
  - rewrite (digit_ceq_false c "-"%char Dc eq_refl).
    change (c :: yd ++ R) with ((c :: yd) ++ R). rewrite (span_exact is_digit (c :: yd) R A HR).
    rewrite Y. reflexivity.
Qed.

Lemma parse_year : forall y R, stops is_digit R ->
  parse_dt ((if y <? 0 then ["-"%char] else []) ++ pad 4 (Z.abs y) ++ R) = after_year y R.
Proof.
  intros y R HR. destruct (pad4_year (Z.abs y) ltac:(lia)) as (c & r & E & A & V & Y).
  rewrite E, parse_dt_digits by assumption. rewrite V. f_equal. destruct (Z.ltb_spec y 0); lia.
Qed.

(* gYear *)
Lemma after_year_none : forall y tz, in_range (-840) 840 tz = true ->
  after_year y (tz_chars tz) = DtOk (y, None, None, None, false, tz).
Proof.
  intros y tz H. pose proof (tz_chars_shape tz H) as S. unfold after_year.
  rewrite (tz_end_chars tz H). cbn [bind_alt].
  destruct (tzshape_dash_two 1 12 _ S) as [->|(n & c & d & ->)]; [reflexivity|].
  reflexivity.
Qed.

(* gYearMonth *)
Lemma after_year_month : forall y m tz, 1 <= m <= 12 -> in_range (-840) 840 tz = true ->
  after_year y ("-"%char :: pad 2 m ++ tz_chars tz) = DtOk (y, Some m, None, None, false, tz).
Proof.
  intros y m tz Hm H. pose proof (tz_chars_shape tz H) as S. unfold after_year.
  rewrite dash_two_pad by lia. rewrite (tz_end_chars tz H). cbn [bind_alt].
  destruct (tzshape_dash_two 1 31 _ S) as [->|(n & c & d & ->)]; [reflexivity|].
  reflexivity.
Qed.

(* date *)
Lemma after_year_day : forall y m x tz, 1 <= m <= 12 -> 1 <= x <= 31 -> in_range (-840) 840 tz = true ->
  after_year y ("-"%char :: pad 2 m ++ "-"%char :: pad 2 x ++ tz_chars tz)
  = DtOk (y, Some m, Some x, None, false, tz).
Proof.
  intros y m x tz Hm Hx H. pose proof (tz_chars_shape tz H) as S. unfold after_year.
  rewrite dash_two_pad by lia. rewrite dash_two_pad by lia.
  rewrite (tzshape_time_part _ S), (tz_end_chars tz H). reflexivity.
Qed.

(* dateTime *)
Lemma after_year_time : forall y m x R t eod tz, 1 <= m <= 12 -> 1 <= x <= 31 -> in_range (-840) 840 tz = true ->
  time_part R = Some (Some t, eod, tz_chars tz) ->
  after_year y ("-"%char :: pad 2 m ++ "-"%char :: pad 2 x ++ R)
  = DtOk (y, Some m, Some x, t, eod, tz).
Proof.
  intros y m x R t eod tz Hm Hx H TP. unfold after_year.
  rewrite dash_two_pad by lia. rewrite dash_two_pad by lia.
  rewrite TP, (tz_end_chars tz H). reflexivity.
Qed.

Lemma in_range_some : forall lo hi x, in_range lo hi (Some x) = true -> lo <= x <= hi.
Proof. intros lo hi x H. apply andb_prop in H as [L U]. split; now apply Z.leb_le. Qed.

Lemma time_valid_inv : forall h mi us,
  (0 <=? h) && (h <=? 23) && (0 <=? mi) && (mi <=? 59) && (0 <=? us) && (us <? 60000000) = true ->
  0 <= h <= 23 /\ 0 <= mi <= 59 /\ 0 <= us < 60000000.
Proof. lia. Qed.

Lemma dt_py_xml_py : forall v, dt_valid v = true -> parse_dt (dt_chars v) = DtOk v.
Proof.
  intros [[[[[y mo] d] t] eod] tz] V. unfold dt_valid in V.
  rewrite !andb_true_iff in V. destruct V as ((((((Vm & Vd) & Vmd) & Vdt) & Ve) & Vt) & TZ).
  pose proof (tz_chars_shape tz TZ) as S.
  unfold dt_chars.
  (* the three conjuncts about which fields may be present leave five of the sixteen combinations *)
  destruct mo as [m|], d as [x|], t as [[[h mi] us]|], eod; try discriminate; cbn [app].
  - (* dateTime *)
    apply in_range_some in Vm, Vd. apply time_valid_inv in Vt as (Hh & Hmi & Hus).
    rewrite parse_year by reflexivity.
    apply after_year_time; try assumption. exact (time_part_time h mi us _ Hh Hmi Hus S).
  - (* end of day *)
    apply in_range_some in Vm, Vd. rewrite parse_year by reflexivity.
    apply after_year_time; try assumption. exact (time_part_eod _ S).
  - (* date *)
    apply in_range_some in Vm, Vd. rewrite parse_year by reflexivity. apply after_year_day; assumption.
  - (* gYearMonth *)
    apply in_range_some in Vm. rewrite parse_year by reflexivity. apply after_year_month; assumption.
  - (* gYear *)
    rewrite parse_year by apply tzshape_sep, S. apply after_year_none; assumption.
Qed.

Lemma oz_eqb_refl : forall a, oz_eqb a a = true.
Proof. intros [x|]; cbn [oz_eqb]; lia. Qed.

Lemma dt_eqb_refl : forall v, dt_eqb v v = true.
Proof.
  intros [[[[[y mo] d] t] eod] tz]. unfold dt_eqb. rewrite !oz_eqb_refl, Z.eqb_refl, eqb_reflx.
  destruct t as [[[h mi] us]|]; cbn [time_eqb]; rewrite ?Z.eqb_refl; reflexivity.
Qed.

Lemma check_dt_valid : forall v, dt_valid v = true -> check_dt v = true.
Proof.
  intros v H. unfold check_dt. rewrite H, (dt_py_xml_py v H), dt_eqb_refl. reflexivity.
Qed.

Lemma check_dt_spec : forall v, check_dt v = true <->
  (dt_valid v = true -> exists v', parse_dt (dt_chars v) = DtOk v' /\ dt_eqb v v' = true).
Proof.
  intros v. split.
  - intros _ H. exists v. split; [now apply dt_py_xml_py|apply dt_eqb_refl].
  - intros H. unfold check_dt. destruct (dt_valid v); [|reflexivity].
    destruct (H eq_refl) as (v' & -> & E). exact E.
Qed.

(* a second field beyond six fraction digits whose nearest binary64 is 60.0: the repaired parser stores the largest
   binary64 below 60, the code before the repair refuses the value *)
Lemma dt_second_float_60 : forall s n D, parse_dt (chars s) = DtUnmodelled -> second_field (chars s) = (n, D) ->
  60 * snd (rnd53 n D) <= fst (rnd53 n D) ->
  dt_second_float s = Some max_second /\ dt_second_float_old s = None.
Proof.
  intros s n D P F H. apply Z.leb_le in H.
  unfold dt_second_float, dt_second_float_old, clamp_second. rewrite P, F. cbn [fst snd]. now rewrite H.
Qed.
