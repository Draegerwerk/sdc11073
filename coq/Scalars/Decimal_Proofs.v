(* C18 -- DecimalConverter: py -> xml -> py keeps the numeric value (up to 18 coefficient digits),
   what format and the string surgery write consists of plain characters, and the boolean checker twin
   agrees with both. *)
From Coq Require Import List ZArith NArith Bool Lia ZifyBool Ascii String.
From SDC Require Import Common.ListFacts Scalars.Lex Scalars.Lex_Proofs Scalars.Timestamp Scalars.Decimal Scalars.Duration.
Import ListNotations.
Open Scope Z_scope.

Lemma forallb_repeat : forall (p : ascii -> bool) c k, p c = true -> forallb p (repeat c k) = true.
Proof. intros p c k H. induction k; simpl; [reflexivity|]. now rewrite H, IHk. Qed.

Lemma forallb_firstn : forall (p : ascii -> bool) k l, forallb p l = true -> forallb p (firstn k l) = true.
Proof. intros p k l H. rewrite <- (firstn_skipn k l), forallb_app in H. now apply andb_prop in H. Qed.

Lemma forallb_skipn : forall (p : ascii -> bool) k l, forallb p l = true -> forallb p (skipn k l) = true.
Proof. intros p k l H. rewrite <- (firstn_skipn k l), forallb_app in H. now apply andb_prop in H. Qed.

Lemma forallb_rev : forall (p : ascii -> bool) l, forallb p (rev l) = forallb p l.
Proof.
  induction l as [|c l IH]; [reflexivity|]. simpl. rewrite forallb_app, IH. simpl.
  destruct (p c), (forallb p l); reflexivity.
Qed.

Lemma existsb_rev : forall (p : ascii -> bool) l, existsb p (rev l) = existsb p l.
Proof.
  induction l as [|c l IH]; [reflexivity|]. simpl. rewrite existsb_app, IH. simpl.
  destruct (p c), (existsb p l); reflexivity.
Qed.

Lemma forallb_lstrip : forall (p q : ascii -> bool) l, forallb p l = true -> forallb p (lstrip q l) = true.
Proof.
  induction l as [|c l IH]; intros H; [reflexivity|]. simpl. destruct (q c); [|exact H].
  simpl in H. apply andb_prop in H as [_ H]. now apply IH.
Qed.

Lemma forallb_neg_existsb : forall (p : ascii -> bool) l,
  forallb (fun c => negb (p c)) l = true -> existsb p l = false.
Proof.
  induction l as [|c l IH]; simpl; intros H; [reflexivity|].
  apply andb_prop in H as [H1 H2]. rewrite (IH H2). destruct (p c); [discriminate|reflexivity].
Qed.

Lemma len_nonneg : forall l, 0 <= len l.
Proof. intros. unfold len. lia. Qed.
Lemma len_app : forall a b, len (a ++ b) = len a + len b.
Proof. intros. unfold len. rewrite app_length. lia. Qed.
Lemma len_zeros : forall k, 0 <= k -> len (zeros k) = k.
Proof. intros. unfold len, zeros. rewrite repeat_length. lia. Qed.
Lemma len_lstrip : forall p l, len (lstrip p l) <= len l.
Proof.
  induction l as [|c l IH]; simpl; [lia|]. destruct (p c); unfold len in *; cbn [List.length]; lia.
Qed.
(* a number below 10^k prints with at most k digits (k >= 1) *)
Lemma len_digits_of : forall n k, 0 < k -> n < 10 ^ k -> len (digits_of n) <= k.
Proof.
  intros n k Hk H. pose proof (digits_fuel_length (Z.to_nat (Z.log2 n)) n (Z.to_nat (k - 1))) as P.
  replace (Z.of_nat (S (Z.to_nat (k - 1)))) with k in P by lia. specialize (P H). unfold len, digits_of. lia.
Qed.
Lemma len_firstn_skipn : forall k l, len (firstn k l) + len (skipn k l) = len l.
Proof. intros. rewrite <- len_app. now rewrite firstn_skipn. Qed.

Lemma digit_plain : forall c, is_digit c = true -> plain_char c = true.
Proof. intros c H. unfold plain_char. now rewrite H. Qed.
Lemma digits_plain : forall l, all_digits l = true -> forallb plain_char l = true.
Proof. intros l. apply forallb_impl, digit_plain. Qed.
Lemma zero_is_digit : forall c, is_zero_char c = true -> is_digit c = true.
Proof. intros c. unfold is_zero_char, is_digit, ceq. change (code "0") with 48%N. lia. Qed.

Lemma digits_no_dot : forall l, all_digits l = true -> existsb is_dot l = false.
Proof.
  intros l H. apply forallb_neg_existsb. revert H. apply forallb_impl.
  intros c D. unfold is_dot. now rewrite (digit_ceq_false c "." D eq_refl).
Qed.

Lemma sign_chars_no_dot : forall neg, existsb is_dot (sign_chars neg) = false.
Proof. destruct neg; reflexivity. Qed.

Lemma all_digits_zeros : forall k, all_digits (zeros k) = true.
Proof. intros. unfold all_digits, zeros. now apply forallb_repeat. Qed.

Lemma digits_val_allzero : forall z, forallb is_zero_char z = true -> digits_val z = 0.
Proof.
  induction z as [|c z IH]; simpl; intros H; [reflexivity|].
  apply andb_prop in H as [H1 H2]. apply ceq_eq in H1. subst c.
  rewrite digits_val_zero_cons. now apply IH.
Qed.

Lemma digits_val_bound : forall l, all_digits l = true -> 0 <= digits_val l < 10 ^ len l.
Proof.
  induction l as [|c l IH] using rev_ind; intros H; [split; [discriminate|reflexivity]|].
  apply all_digits_app in H as [H1 H2]. apply andb_prop in H2 as [H2 _].
  rewrite digits_val_snoc, len_app. change (len [c]) with 1.
  rewrite Z.pow_add_r, Z.pow_1_r by (apply len_nonneg || discriminate).
  pose proof (digit_val_range c H2). specialize (IH H1). lia.
Qed.

Lemma digits_val_app_zeros : forall l z, forallb is_zero_char z = true ->
  digits_val (l ++ z) = digits_val l * 10 ^ len z.
Proof. intros l z H. rewrite digits_val_app, (digits_val_allzero z H). unfold len. lia. Qed.

Lemma digits_val_or_zero_app : forall a b, digits_val (or_zero a ++ b) = digits_val (a ++ b).
Proof. intros [|c a] b; simpl; [apply digits_val_zero_cons|reflexivity]. Qed.

Lemma digits_val_norm : forall l, digits_val (norm_digs l) = digits_val l.
Proof.
  intros l. unfold norm_digs. rewrite <- (digits_val_lstrip0 l).
  destruct (lstrip is_zero_char l); reflexivity.
Qed.

Lemma lstrip_zeros_app : forall k l, lstrip is_zero_char (zeros k ++ l) = lstrip is_zero_char l.
Proof. intros k l. unfold zeros. induction (Z.to_nat k); simpl; [reflexivity|assumption]. Qed.

Lemma digits_val_zeros_app : forall k l, digits_val (zeros k ++ l) = digits_val l.
Proof. intros. now rewrite <- digits_val_lstrip0, lstrip_zeros_app, digits_val_lstrip0. Qed.

(* a number printed with leading zeros: still digits, still the number *)
Lemma zeros_digits_of : forall k n, 0 <= n ->
  all_digits (zeros k ++ digits_of n) = true /\ digits_val (zeros k ++ digits_of n) = n.
Proof.
  intros k n H. destruct (digits_of_spec n H) as (A & _ & V). rewrite digits_val_zeros_app.
  split; [apply all_digits_app; auto using all_digits_zeros|exact V].
Qed.

(* [eff_exp] and [cap_of] are, word for word, the exponent [e] that int_frac works with (format(d, 'f') writes a zero
   with a positive exponent as "0") and the digit cap [cap] of surgery, named so that lemmas can mention them; the proofs
   bring them in by [fold] *)
Definition eff_exp (d : dec) : Z :=
  if forallb is_zero_char (ddigs d) && (0 <? dexp d) then 0 else dexp d.

Definition cap_of (ip fp : list ascii) : Z :=
  if is_nil (lstrip is_zero_char ip) then 18 + (len fp - len (lstrip is_zero_char fp))
  else 18 - len (lstrip is_zero_char ip).

Lemma eff_exp_cases : forall d,
  eff_exp d = dexp d \/ (digits_val (ddigs d) = 0 /\ eff_exp d = 0 /\ 0 < dexp d).
Proof.
  intros d. unfold eff_exp. destruct (forallb is_zero_char (ddigs d)) eqn:F; [|now left].
  destruct (Z.ltb_spec 0 (dexp d)); [right|now left]. auto using digits_val_allzero.
Qed.

Lemma wf_digs_all : forall l, wf_digs l = true -> all_digits l = true /\ l <> [].
Proof.
  intros l H. unfold wf_digs in H. apply andb_prop in H as [H _]. apply andb_prop in H as [H1 H2].
  split; [exact H1|]. destruct l; [discriminate|discriminate].
Qed.

(* what format(d, 'f') writes, by the three positions of the point (0.000ddd, ddd000, dd.ddd): integer and fraction part
   are digits, together they are the coefficient scaled by the exponent, and with at most 18 coefficient digits the
   fraction is no longer than surgery's cap, so that the cap cuts nothing *)
Lemma int_frac_shape : forall d ip fp, wf_dec d = true -> int_frac d = (ip, fp) ->
  ip <> [] /\ all_digits ip = true /\ all_digits fp = true /\
  (0 <= eff_exp d + len fp /\ digits_val (ip ++ fp) = digits_val (ddigs d) * 10 ^ (eff_exp d + len fp)) /\
  (len (ddigs d) <= 18 -> len fp <= Z.max (cap_of ip fp) 0).
Proof.
  intros d ip fp W H. apply wf_digs_all in W as [D N].
  unfold int_frac in H. fold (eff_exp d) in H. cbv zeta in H.
  set (e := eff_exp d) in *. set (digs := ddigs d) in *.
  pose proof (len_nonneg digs) as Ln.
  destruct (Z.ltb_spec (e + len digs) 0) as [L1|L1]; [|destruct (Z.ltb_spec (len digs) (e + len digs)) as [L2|L2]];
    inversion H; subst ip fp; clear H.
  - (* 0.000ddd *)
    split; [discriminate|]. split; [reflexivity|]. split.
    { apply all_digits_app. auto using all_digits_zeros. }
    split.
    + rewrite len_app, len_zeros by lia. replace (e + (- (e + len digs) + len digs)) with 0 by lia.
      split; [lia|]. cbn [app]. rewrite digits_val_zero_cons, digits_val_zeros_app. lia.
    + intros L18. unfold cap_of. cbn [lstrip]. change (is_zero_char "0") with true. cbn [lstrip is_nil].
      rewrite lstrip_zeros_app. pose proof (len_lstrip is_zero_char digs). lia.
  - (* ddd000 *)
    split; [intros E; apply app_eq_nil in E as [E _]; contradiction|].
    split; [apply all_digits_app; auto using all_digits_zeros|].
    split; [reflexivity|]. split.
    + rewrite app_nil_r, Z.add_0_r. split; [lia|].
      rewrite digits_val_app_zeros by apply (forallb_repeat is_zero_char "0"%char _ eq_refl).
      rewrite len_zeros by lia. f_equal. f_equal. lia.
    + intros _. change (len []) with 0. lia.
  - (* dd.ddd *)
    set (k := Z.to_nat (e + len digs)).
    split; [destruct (firstn k digs); discriminate|].
    split; [destruct (firstn k digs) eqn:E; [reflexivity|cbn [or_zero]; rewrite <- E; now apply forallb_firstn]|].
    split; [now apply forallb_skipn|].
    pose proof (len_firstn_skipn k digs) as LS.
    assert (LF : len (firstn k digs) = e + len digs).
    { unfold len. rewrite firstn_length. unfold len in *. lia. }
    split.
    + replace (e + len (skipn k digs)) with 0 by lia.
      split; [lia|]. rewrite digits_val_or_zero_app, firstn_skipn. lia.
    + intros L18. unfold cap_of.
      pose proof (len_lstrip is_zero_char (skipn k digs)).
      pose proof (len_nonneg (skipn k digs)).
      destruct (firstn k digs) as [|c f] eqn:E.
      * cbn [or_zero lstrip]. change (is_zero_char "0") with true. cbn [lstrip is_nil]. lia.
      * cbn [or_zero]. pose proof (len_lstrip is_zero_char (c :: f)).
        destruct (is_nil (lstrip is_zero_char (c :: f))); lia.
Qed.

Lemma rstrip0_spec : forall l, exists z, l = rstrip0 l ++ z /\ forallb is_zero_char z = true.
Proof.
  intros l. destruct (lstrip_spec is_zero_char (rev l)) as [a [E [F _]]].
  exists (rev a). split; [|now rewrite forallb_rev].
  unfold rstrip0. rewrite <- rev_app_distr, <- E. now rewrite rev_involutive.
Qed.

Lemma rstrip0_digits : forall l, all_digits l = true -> all_digits (rstrip0 l) = true.
Proof.
  intros l H. unfold rstrip0, all_digits. rewrite forallb_rev. apply forallb_lstrip. now rewrite forallb_rev.
Qed.

Lemma strip_rev_nodot : forall r, existsb is_dot r = false -> strip_rev r = r.
Proof.
  destruct r as [|c r]; intros H; [reflexivity|]. cbn [strip_rev]. rewrite H. now rewrite andb_false_r.
Qed.

(* strip_rev works on the reversed string: q is the reversed fraction, h the reversed head (sign and integer part);
   it eats the zeros of q, and the point as well if nothing of q is left *)
Lemma strip_rev_frac : forall q h, all_digits q = true -> existsb is_dot h = false ->
  strip_rev (q ++ "."%char :: h) =
  match lstrip is_zero_char q with [] => h | _ :: _ => lstrip is_zero_char q ++ "."%char :: h end.
Proof.
  induction q as [|c q IH]; intros h D N.
  - cbn [app lstrip strip_rev]. change (is_dot ".") with true. rewrite orb_true_r.
    cbn [existsb]. change (is_dot ".") with true. cbn [orb andb]. now apply strip_rev_nodot.
  - apply andb_prop in D as [Dc Dq].
    cbn [app lstrip strip_rev]. destruct (is_zero_char c) eqn:Z.
    + assert (X : existsb is_dot (c :: q ++ "."%char :: h) = true).
      { cbn [existsb]. rewrite existsb_app. cbn [existsb]. change (is_dot ".") with true.
        rewrite !orb_true_r. reflexivity. }
      rewrite X. cbn [orb andb]. now apply IH.
    + unfold is_dot at 1. rewrite (digit_ceq_false c "." Dc eq_refl). reflexivity.
Qed.

(* the head sign ++ ip has no point, so span splits at the point; the cap is at least len fp, so firstn keeps all of
   fp; on the reversed string strip_rev removes the trailing zeros of fp, and the point with them if fp was all zeros
   (strip_rev_frac) *)
Lemma surgery_format : forall neg ip fp, ip <> [] -> all_digits ip = true -> all_digits fp = true ->
  len fp <= Z.max (cap_of ip fp) 0 ->
  surgery (sign_chars neg ++ ip ++ dot_frac fp) = sign_chars neg ++ ip ++ dot_frac (rstrip0 fp).
Proof.
  intros neg ip fp N Di Df C. unfold surgery.
  assert (Nh : existsb is_dot (sign_chars neg ++ ip) = false).
  { rewrite existsb_app, sign_chars_no_dot, digits_no_dot by assumption. reflexivity. }
  destruct fp as [|f fp0].
  - change (rstrip0 []) with (@nil ascii). cbn [dot_frac]. rewrite app_nil_r, Nh. reflexivity.
  - cbn [dot_frac]. set (fp := f :: fp0) in *.
    rewrite app_assoc. rewrite existsb_app. cbn [existsb]. change (is_dot ".") with true.
    rewrite orb_true_r. cbn [orb].
    rewrite (span_exact (fun c => negb (is_dot c)) (sign_chars neg ++ ip) ("."%char :: fp)).
    2:{ clear -Nh. induction (sign_chars neg ++ ip) as [|c l IH]; [reflexivity|].
        cbn [existsb forallb] in *. apply orb_false_elim in Nh as [A B]. rewrite A. now apply IH. }
    2:{ reflexivity. }
    cbn [tl].
    assert (LS : lstrip is_sign (sign_chars neg ++ ip) = ip).
    { destruct ip as [|c ip0]; [congruence|]. apply andb_prop in Di as [Dc _].
      destruct neg; cbn [sign_chars app lstrip]; [change (is_sign "-") with true; cbn [lstrip]|];
        unfold is_sign; now rewrite (digit_ceq_false c "+" Dc eq_refl), (digit_ceq_false c "-" Dc eq_refl). }
    rewrite LS. fold (cap_of ip fp).
    rewrite firstn_all2 by (unfold len in C; lia).
    subst fp. cbn [is_nil]. set (fp := f :: fp0) in *.
    rewrite rev_app_distr. cbn [rev]. rewrite <- app_assoc. cbn [app].
    rewrite strip_rev_frac; [| unfold all_digits; now rewrite forallb_rev | rewrite existsb_rev; exact Nh].
    unfold rstrip0. destruct (lstrip is_zero_char (rev fp)) as [|t0 t] eqn:E.
    + cbn [rev dot_frac]. rewrite rev_involutive, app_nil_r. reflexivity.
    + rewrite rev_app_distr. cbn [rev]. rewrite rev_involutive. rewrite <- !app_assoc. cbn [app].
      destruct (rev t ++ [t0]) as [|x y] eqn:E2; [apply app_eq_nil in E2 as [_ E2]; discriminate|].
      cbn [dot_frac]. reflexivity.
Qed.

Lemma dec_parse_plain : forall neg ip fp, ip <> [] -> all_digits ip = true -> all_digits fp = true ->
  dec_parse (sign_chars neg ++ ip ++ dot_frac fp) = Some (neg, norm_digs (ip ++ fp), - len fp).
Proof.
  intros neg ip fp N Di Df.
  unfold dec_parse, sign_chars. rewrite (take_sign_signed neg ip (dot_frac fp) N Di).
  rewrite (span_exact is_digit ip (dot_frac fp) Di).
  2:{ destruct fp; [exact I|reflexivity]. }
  destruct ip as [|c ip0]; [congruence|]. destruct fp as [|f fp0].
  - cbn [dot_frac is_nil]. rewrite app_nil_r. reflexivity.
  - cbn [dot_frac]. change (is_dot ".") with true. cbv iota.
    rewrite <- (app_nil_r (f :: fp0)) at 1.
    rewrite (span_exact is_digit (f :: fp0) [] Df I).
    reflexivity.
Qed.

Lemma dec_to_xml_l_eq : forall d ip fp, wf_dec d = true -> len (ddigs d) <= 18 -> int_frac d = (ip, fp) ->
  dec_to_xml_l d = sign_chars (dneg d) ++ ip ++ dot_frac (rstrip0 fp).
Proof.
  intros d ip fp W L IF. destruct (int_frac_shape d ip fp W IF) as (N & Di & Df & _ & C).
  unfold dec_to_xml_l, format_f. rewrite IF. apply surgery_format; auto.
Qed.

(* the two values may be compared at any exponent below both *)
Lemma dec_value_eq_at : forall d1 d2 k, k <= dexp d1 -> k <= dexp d2 ->
  dec_num d1 * 10 ^ (dexp d1 - k) = dec_num d2 * 10 ^ (dexp d2 - k) -> dec_value_eq d1 d2.
Proof.
  intros d1 d2 k K1 K2 H. unfold dec_value_eq. cbv zeta.
  set (m := Z.min (dexp d1) (dexp d2)).
  apply (Z.mul_reg_r _ _ (10 ^ (m - k))); [apply Z.pow_nonzero; lia|].
  rewrite <- !Z.mul_assoc, <- !Z.pow_add_r by lia.
  replace (dexp d1 - m + (m - k)) with (dexp d1 - k) by lia.
  replace (dexp d2 - m + (m - k)) with (dexp d2 - k) by lia. exact H.
Qed.

Lemma dec_py_xml_py : forall d, wf_dec d = true -> len (ddigs d) <= 18 ->
  exists d', dec_parse (dec_to_xml_l d) = Some d' /\ dec_value_eq d' d.
Proof.
  intros d W L. destruct (int_frac d) as [ip fp] eqn:IF.
  rewrite (dec_to_xml_l_eq d ip fp W L IF).
  destruct (int_frac_shape d ip fp W IF) as (N & Di & Df & EV & _).
  rewrite dec_parse_plain by auto using rstrip0_digits.
  eexists. split; [reflexivity|].
  (* fp = rstrip0 fp ++ z with z zeros: compare at the exponent k = - len fp of what format wrote *)
  destruct (rstrip0_spec fp) as (z & E & Zz).
  rewrite E, app_assoc, digits_val_app_zeros, len_app in EV by assumption.
  set (k := - (len (rstrip0 fp) + len z)) in *.
  assert (K : k <= - len (rstrip0 fp) /\ k <= dexp d /\ - len (rstrip0 fp) - k = len z).
  { destruct EV as [E0 _]. pose proof (len_nonneg z) as Lz. clear - E0 Lz.
    destruct (eff_exp_cases d) as [EE|(_ & EE & P)]; lia. }
  destruct K as (K1 & K2 & K3).
  apply (dec_value_eq_at _ _ k); unfold dec_num; cbn [dneg ddigs dexp fst snd];
    fold (dneg d) (ddigs d) (dexp d); [exact K1|exact K2|].
  rewrite digits_val_norm, K3.
  assert (V : digits_val (ip ++ rstrip0 fp) * 10 ^ len z = digits_val (ddigs d) * 10 ^ (dexp d - k)).
  { destruct EV as [_ ->]. destruct (eff_exp_cases d) as [->|(-> & _)]; [|reflexivity]. f_equal. f_equal. clear. lia. }
  destruct (dneg d); [rewrite !Z.mul_opp_l; f_equal|]; exact V.
Qed.

Lemma strip_rev_forallb : forall (p : ascii -> bool) r, forallb p r = true -> forallb p (strip_rev r) = true.
Proof.
  induction r as [|c r IH]; intros H; [exact H|]. cbn [strip_rev].
  destruct ((is_zero_char c || is_dot c) && existsb is_dot (c :: r)); [|exact H].
  cbn [forallb] in H. apply andb_prop in H as [_ H]. now apply IH.
Qed.

Lemma surgery_plain : forall s, forallb plain_char s = true -> forallb plain_char (surgery s) = true.
Proof.
  intros s H. unfold surgery. destruct (existsb is_dot s); [|exact H].
  destruct (span (fun c => negb (is_dot c)) s) as [head r] eqn:SP.
  destruct (span_spec _ _ _ _ SP) as [E _]. subst s.
  rewrite forallb_app in H. apply andb_prop in H as [Hh Hr].
  cbv zeta. rewrite forallb_rev. apply strip_rev_forallb. rewrite forallb_rev.
  destruct (is_nil _); [exact Hh|].
  rewrite forallb_app, Hh. cbn [forallb andb]. change (plain_char ".") with true. cbn [andb].
  apply forallb_firstn. destruct r as [|c r]; [reflexivity|].
  cbn [tl]. cbn [forallb] in Hr. apply andb_prop in Hr as [_ Hr]. exact Hr.
Qed.

Lemma format_f_plain : forall d, wf_dec d = true -> forallb plain_char (format_f d) = true.
Proof.
  intros d W. unfold format_f. destruct (int_frac d) as [ip fp] eqn:IF.
  destruct (int_frac_shape d ip fp W IF) as (_ & Di & Df & _ & _).
  apply digits_plain in Di, Df.
  rewrite !forallb_app, Di.
  assert (S : forallb plain_char (sign_chars (dneg d)) = true) by (destruct (dneg d); reflexivity).
  rewrite S. cbn [andb]. destruct fp as [|f fp0]; [reflexivity|].
  cbn [dot_frac]. cbn [forallb] in *. change (plain_char ".") with true. exact Df.
Qed.

Lemma dec_value_eqb_spec : forall d1 d2, dec_value_eqb d1 d2 = true <-> dec_value_eq d1 d2.
Proof. intros. unfold dec_value_eqb, dec_value_eq. cbv zeta. apply Z.eqb_eq. Qed.

Lemma check_decimal_spec : forall d, check_decimal d = true <->
  ((exists d', dec_parse (dec_to_xml_l d) = Some d' /\ dec_value_eq d' d) /\ forallb plain_char (dec_to_xml_l d) = true).
Proof.
  intros d. unfold check_decimal. destruct (dec_parse (dec_to_xml_l d)) as [d'|].
  - rewrite andb_true_iff, dec_value_eqb_spec. split.
    + intros [A B]. split; [exists d'; split; [reflexivity|exact A]|exact B].
    + intros [[d'' [E A]] B]. inversion E; subst d''. split; assumption.
  - split; [discriminate|]. intros [[d' [E _]] _]. discriminate.
Qed.
