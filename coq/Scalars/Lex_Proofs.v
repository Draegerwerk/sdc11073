(* C18 -- lemmas about character scans, digit strings, integer printing / parsing and the string sets of
   enumerations. *)
From Coq Require Import List ZArith NArith Bool Lia ZifyBool Ascii String.
From SDC Require Import Scalars.Lex.
Import ListNotations.
Open Scope Z_scope.

Lemma chars_str : forall l, chars (str l) = l.
Proof. exact list_ascii_of_string_of_list_ascii. Qed.
Lemma str_chars : forall s, str (chars s) = s.
Proof. exact string_of_list_ascii_of_string. Qed.

Lemma ceq_eq : forall a b, ceq a b = true <-> a = b.
Proof.
  intros a b. unfold ceq, code. rewrite N.eqb_eq. split; [|now intros ->].
  intros H. rewrite <- (ascii_N_embedding a), <- (ascii_N_embedding b). now rewrite H.
Qed.
Lemma ceq_refl : forall a, ceq a a = true.
Proof. intros. now apply ceq_eq. Qed.

Lemma list_ceq_eq : forall a b, list_ceq a b = true <-> a = b.
Proof.
  induction a as [|x a IH]; intros [|y b]; simpl; split; try congruence; try discriminate.
  - intros H. apply andb_prop in H as [H1 H2]. apply ceq_eq in H1. apply IH in H2. congruence.
  - intros [= -> ->]. rewrite ceq_refl. simpl. now apply IH.
Qed.

Lemma digit_ceq_false : forall c x, is_digit c = true -> is_digit x = false -> ceq c x = false.
Proof.
  intros c x D X. destruct (ceq c x) eqn:E; [|reflexivity]. apply ceq_eq in E. subst. congruence.
Qed.

Lemma divmod_nonneg : forall a b, 0 <= a -> 0 < b ->
  a = b * (a / b) + a mod b /\ 0 <= a mod b < b /\ 0 <= a / b.
Proof.
  intros a b Ha Hb. split; [apply Z.div_mod; lia|]. split; [now apply Z.mod_pos_bound|now apply Z.div_pos].
Qed.

Lemma pow10_pos : forall k, 0 <= k -> 0 < 10 ^ k.
Proof. intros. apply Z.pow_pos_nonneg; lia. Qed.

(* r is empty or begins with a character failing p: a scan with p ends in front of r *)
Definition stops (p : ascii -> bool) (r : list ascii) : Prop :=
  match r with [] => True | c :: _ => p c = false end.

Lemma span_spec : forall p l a b, span p l = (a, b) -> l = a ++ b /\ forallb p a = true /\ stops p b.
Proof.
  induction l as [|c r IH]; simpl; intros a b H.
  - inversion H. repeat split.
  - destruct (p c) eqn:E.
    + destruct (span p r) as [a' b'] eqn:S. inversion H; subst. destruct (IH a' b eq_refl) as [-> [F T]].
      simpl. rewrite E, F. auto.
    + inversion H; subst. repeat split. exact E.
Qed.

Lemma span_exact : forall p a r, forallb p a = true -> stops p r -> span p (a ++ r) = (a, r).
Proof.
  induction a as [|x a IH]; simpl; intros r F T.
  - destruct r as [|c r']; simpl in *; [reflexivity|]. now rewrite T.
  - apply andb_prop in F as [F1 F2]. rewrite F1, (IH r F2 T). reflexivity.
Qed.

Lemma lstrip_spec : forall p l, exists a, l = a ++ lstrip p l /\ forallb p a = true /\ stops p (lstrip p l).
Proof.
  induction l as [|c r IH]; simpl.
  - exists []. repeat split.
  - destruct (p c) eqn:E.
    + destruct IH as [a [H1 [H2 H3]]]. exists (c :: a). simpl. rewrite E, H2. split; [congruence|auto].
    + exists []. repeat split. exact E.
Qed.

Lemma lstrip_exact : forall p a r, forallb p a = true ->
  (r = [] \/ exists c r', r = c :: r' /\ p c = false) -> lstrip p (a ++ r) = r.
Proof.
  induction a as [|x a IH]; simpl; intros r F T.
  - destruct T as [->|[c [r' [-> E]]]]; simpl; [reflexivity|]. now rewrite E.
  - apply andb_prop in F as [F1 F2]. rewrite F1. now apply IH.
Qed.

Lemma digits_val_acc : forall l acc,
  fold_left (fun a c => a * 10 + digit_val c) l acc = acc * 10 ^ Z.of_nat (List.length l) + digits_val l.
Proof.
  unfold digits_val. induction l as [|c l IH]; intros acc.
  - simpl. lia.
  - cbn [fold_left List.length]. rewrite IH. rewrite (IH (0 * 10 + digit_val c)).
    rewrite Nat2Z.inj_succ, Z.pow_succ_r by lia. ring.
Qed.

Lemma digits_val_app : forall a b,
  digits_val (a ++ b) = digits_val a * 10 ^ Z.of_nat (List.length b) + digits_val b.
Proof. intros a b. unfold digits_val at 1. rewrite fold_left_app. fold (digits_val a). apply digits_val_acc. Qed.

Lemma digits_val_snoc : forall l c, digits_val (l ++ [c]) = digits_val l * 10 + digit_val c.
Proof. intros. rewrite digits_val_app. simpl. unfold digits_val at 2. simpl. lia. Qed.

Lemma digits_val_cons : forall c l,
  digits_val (c :: l) = digit_val c * 10 ^ Z.of_nat (List.length l) + digits_val l.
Proof. intros. change (c :: l) with ([c] ++ l). rewrite digits_val_app. unfold digits_val at 1. simpl. lia. Qed.

Lemma digit_val_range : forall c, is_digit c = true -> 0 <= digit_val c <= 9.
Proof. intros c H. unfold is_digit, digit_val in *. lia. Qed.

Lemma all_digits_app : forall a b, all_digits (a ++ b) = true <-> all_digits a = true /\ all_digits b = true.
Proof. intros. unfold all_digits. rewrite forallb_app. apply andb_true_iff. Qed.

Lemma digits_val_zero_cons : forall l, digits_val ("0"%char :: l) = digits_val l.
Proof. intros. rewrite digits_val_cons. change (digit_val "0") with 0. lia. Qed.

Lemma digits_val_lstrip0 : forall l, digits_val (lstrip is_zero_char l) = digits_val l.
Proof.
  induction l as [|c l IH]; simpl; [reflexivity|].
  destruct (is_zero_char c) eqn:E; [|reflexivity].
  unfold is_zero_char in E. apply ceq_eq in E. subst c. now rewrite digits_val_zero_cons.
Qed.

Lemma digit_char_spec : forall d, 0 <= d < 10 -> is_digit (digit_char d) = true /\ digit_val (digit_char d) = d.
Proof.
  intros d H.
  assert (C : d = 0 \/ d = 1 \/ d = 2 \/ d = 3 \/ d = 4 \/ d = 5 \/ d = 6 \/ d = 7 \/ d = 8 \/ d = 9) by lia.
  repeat (destruct C as [->|C]; [split; reflexivity|]). subst d. split; reflexivity.
Qed.

Lemma digits_fuel_spec : forall fuel n, 0 <= n < 2 ^ (Z.of_nat fuel + 1) ->
  all_digits (digits_fuel fuel n) = true /\ digits_val (digits_fuel fuel n) = n /\
  exists c r, digits_fuel fuel n = c :: r /\ (0 < n -> is_zero_char c = false).
Proof.
  assert (One : forall n, 0 <= n < 10 ->
    all_digits [digit_char n] = true /\ digits_val [digit_char n] = n /\
    exists c r, [digit_char n] = c :: r /\ (0 < n -> is_zero_char c = false)).
  { intros n H. destruct (digit_char_spec n H) as [D V].
    unfold all_digits, digits_val. cbn [forallb fold_left]. rewrite D, V.
    split; [reflexivity|]. split; [lia|]. eexists _, _. split; [reflexivity|]. intros P.
    destruct (is_zero_char (digit_char n)) eqn:E; [|reflexivity].
    apply ceq_eq in E. rewrite E in V. change (digit_val "0") with 0 in V. lia. }
  induction fuel as [|f IH]; intros n H.
  - apply One. change (2 ^ (Z.of_nat 0 + 1)) with 2 in H. lia.
  - cbn [digits_fuel]. destruct (Z.ltb_spec n 10) as [L|L]; [apply One; lia|].
    assert (Hq : 0 < n / 10 < 2 ^ (Z.of_nat f + 1)).
    { split; [apply Z.div_str_pos; lia|]. apply Z.div_lt_upper_bound; [lia|].
      rewrite Nat2Z.inj_succ in H. replace (Z.succ (Z.of_nat f) + 1) with (Z.succ (Z.of_nat f + 1)) in H by lia.
      rewrite Z.pow_succ_r in H by lia. lia. }
    destruct (IH (n / 10)) as (A & C & c & r & E & Z0); [lia|].
    destruct (divmod_nonneg n 10) as (DM & M & _); [lia..|].
    destruct (digit_char_spec (n mod 10) M) as [D V].
    split; [|split].
    + apply all_digits_app. split; [exact A|]. unfold all_digits. cbn [forallb]. now rewrite D.
    + rewrite digits_val_snoc, C, V. lia.
    + rewrite E. exists c, (r ++ [digit_char (n mod 10)]). split; [reflexivity|]. intros _. apply Z0, Hq.
Qed.

(* log2 n + 1 rounds of division by ten are enough *)
Lemma digits_of_fuel : forall n, 0 <= n -> 0 <= n < 2 ^ (Z.of_nat (Z.to_nat (Z.log2 n)) + 1).
Proof.
  intros n Hn. split; [exact Hn|]. destruct (Z.eq_dec n 0) as [->|N0]; [reflexivity|].
  rewrite Z2Nat.id by apply Z.log2_nonneg. apply Z.log2_spec. lia.
Qed.

Lemma digits_of_spec : forall n, 0 <= n ->
  all_digits (digits_of n) = true /\ digits_of n <> [] /\ digits_val (digits_of n) = n.
Proof.
  intros n Hn. destruct (digits_fuel_spec _ n (digits_of_fuel n Hn)) as (A & V & c & r & E & _).
  fold (digits_of n) in *. split; [exact A|]. split; [rewrite E; discriminate|exact V].
Qed.

(* no leading zero *)
Lemma digits_of_head : forall n, 0 < n -> exists c r, digits_of n = c :: r /\ is_zero_char c = false.
Proof.
  intros n Hn. destruct (digits_fuel_spec _ n (digits_of_fuel n (Z.lt_le_incl _ _ Hn))) as (_ & _ & c & r & E & Z0).
  eauto.
Qed.

(* a number below 10^k prints with at most k digits (k >= 1) *)
Lemma digits_fuel_length : forall fuel n k, n < 10 ^ Z.of_nat (S k) ->
  (List.length (digits_fuel fuel n) <= S k)%nat.
Proof.
  induction fuel as [|f IH]; intros n k H; [simpl; lia|].
  cbn [digits_fuel]. destruct (Z.ltb_spec n 10) as [L|L]; [simpl; lia|].
  destruct k as [|k]; [change (10 ^ Z.of_nat 1) with 10 in H; lia|].
  rewrite app_length. simpl List.length.
  assert (Hq : n / 10 < 10 ^ Z.of_nat (S k)).
  { apply Z.div_lt_upper_bound; [lia|]. rewrite (Nat2Z.inj_succ (S k)), Z.pow_succ_r in H by lia. lia. }
  specialize (IH _ _ Hq). lia.
Qed.

Lemma is_digit_not_ws : forall c, is_digit c = true -> is_ws c = false.
Proof. intros c. unfold is_digit, is_ws. lia. Qed.

Lemma take_sign_signed : forall (neg : bool) ds r, ds <> [] -> all_digits ds = true ->
  take_sign (lstrip is_ws ((if neg then ["-"%char] else []) ++ ds ++ r)) = (neg, ds ++ r).
Proof.
  intros neg [|c ds] r N D; [congruence|]. apply andb_prop in D as [Dc _].
  destruct neg; cbn [app lstrip]; [reflexivity|].
  rewrite (is_digit_not_ws c Dc). cbn [take_sign].
  now rewrite (digit_ceq_false c "-" Dc eq_refl), (digit_ceq_false c "+" Dc eq_refl).
Qed.

Lemma int_parse_signed : forall (neg : bool) ds, ds <> [] -> all_digits ds = true ->
  int_parse ((if neg then ["-"%char] else []) ++ ds) = Some (if neg then - digits_val ds else digits_val ds).
Proof.
  intros neg ds N D. unfold int_parse. rewrite <- (app_nil_r ds) at 1.
  rewrite (take_sign_signed neg ds [] N D), (span_exact is_digit ds [] D I).
  destruct ds; [congruence|reflexivity].
Qed.

(* py -> xml -> py is the identity on all integers *)
Lemma int_print_parse : forall n, int_parse (print_Z n) = Some n.
Proof.
  intros n. unfold print_Z. destruct (Z.ltb_spec n 0) as [L|L].
  - destruct (digits_of_spec (- n) ltac:(lia)) as (A & B & C).
    pose proof (int_parse_signed true _ B A) as P. cbn [app] in P. rewrite P, C. f_equal. lia.
  - destruct (digits_of_spec n L) as (A & B & C). pose proof (int_parse_signed false _ B A) as P. now rewrite <- C at 2.
Qed.

Lemma take_sign_spec : forall l neg r, take_sign l = (neg, r) ->
  exists sg, l = sg ++ r /\
    ((sg = [] /\ neg = false) \/ (sg = ["+"%char] /\ neg = false) \/ (sg = ["-"%char] /\ neg = true)).
Proof.
  intros l neg r H. unfold take_sign in H. destruct l as [|c l'].
  - inversion H; subst. exists []. auto.
  - destruct (ceq c "-") eqn:C1; [|destruct (ceq c "+") eqn:C2]; inversion H; subst.
    + apply ceq_eq in C1. subst. exists ["-"%char]. auto.
    + apply ceq_eq in C2. subst. exists ["+"%char]. auto 6.
    + exists []. auto.
Qed.

(* whatever the parser accepts lies in the lexical space  ws* [+-]? digit+ ws*  and denotes the returned value *)
Definition int_lexical (s : list ascii) (v : Z) : Prop :=
  exists w1 sg ds w2, s = w1 ++ sg ++ ds ++ w2 /\ all_ws w1 = true /\ all_ws w2 = true /\
    ds <> [] /\ all_digits ds = true /\
    ((sg = [] /\ v = digits_val ds) \/ (sg = ["+"%char] /\ v = digits_val ds) \/ (sg = ["-"%char] /\ v = - digits_val ds)).

Lemma int_parse_lexical : forall s v, int_parse s = Some v -> int_lexical s v.
Proof.
  intros s v H. unfold int_parse in H.
  destruct (lstrip_spec is_ws s) as [w1 [E1 [W1 _]]].
  destruct (take_sign (lstrip is_ws s)) as [neg r1] eqn:TS.
  destruct (take_sign_spec _ _ _ TS) as [sg [E2 SG]].
  destruct (span is_digit r1) as [ds r2] eqn:SP.
  destruct (span_spec _ _ _ _ SP) as [E3 [D _]].
  destruct ds as [|d0 ds']; [discriminate|].
  destruct (all_ws r2) eqn:W2; [|discriminate].
  inversion H; subst v; clear H.
  exists w1, sg, (d0 :: ds'), r2. rewrite E1, E2, E3. repeat split; auto; try discriminate.
  destruct SG as [[-> ->]|[[-> ->]|[-> ->]]]; auto.
Qed.

Lemma str_mem_In : forall s lits, str_mem s lits = true <-> In s lits.
Proof.
  induction lits as [|l r IH]; simpl; [split; [discriminate|tauto]|].
  rewrite orb_true_iff, IH, list_ceq_eq. split; intros [H|H]; auto.
Qed.

