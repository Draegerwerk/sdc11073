(* C18 -- the float path of DecimalConverter.to_xml: what is formatted is a non-negative count of units and
   consists of plain characters. *)
From Coq Require Import List ZArith Bool Lia ZifyBool String Ascii.
From SDC Require Import Scalars.Lex Scalars.Lex_Proofs Scalars.Timestamp Scalars.Timestamp_Proofs
  Scalars.Decimal Scalars.Decimal_Proofs Scalars.DecimalFloat.
Import ListNotations.
Open Scope Z_scope.

Lemma fdigits_range : forall a b, 1 <= fdigits a b <= 3.
Proof. intros. unfold fdigits. destruct (100 * b <=? a); [lia|]. destruct (10 * b <=? a); lia. Qed.

(* round(x, n) with the documented n is a non-negative fraction with a positive denominator *)
Lemma round_nd_spec : forall a b, 0 <= a -> 0 < b ->
  0 < 10 ^ fdigits a b /\ 0 <= fst (round_nd a b (fdigits a b)) /\ 0 < snd (round_nd a b (fdigits a b)).
Proof.
  intros a b Ha Hb. pose proof (fdigits_range a b) as R. set (n := fdigits a b) in *.
  pose proof (pow10_pos n ltac:(lia)) as P. unfold round_nd.
  assert (K : 0 <= rne_div (a * 10 ^ n) b) by (apply rne_div_nonneg; [exact Hb|apply Z.mul_nonneg_nonneg; lia]).
  destruct (rnd53_spec _ _ K P) as (y & d & -> & S & F & _). cbn [fst snd]. auto.
Qed.

Lemma float_units_nonneg : forall a b, 0 <= a -> 0 < b -> 0 <= float_units a b.
Proof.
  intros a b Ha Hb. destruct (round_nd_spec a b Ha Hb) as (P & F & S). unfold float_units, format_nf.
  apply rne_div_nonneg; [exact S|apply Z.mul_nonneg_nonneg; lia].
Qed.

Lemma float_format_plain : forall neg a b, 0 <= a -> 0 < b -> forallb plain_char (float_format_l neg a b) = true.
Proof.
  intros neg a b Ha Hb. unfold float_format_l. cbv zeta.
  pose proof (float_units_nonneg a b Ha Hb) as K. unfold float_units in K.
  set (k := format_nf (round_nd a b (fdigits a b)) (fdigits a b)) in *. clearbody k.
  pose proof (fdigits_range a b) as R. set (n := fdigits a b) in *.
  pose proof (pow10_pos n ltac:(lia)) as P.
  rewrite forallb_app. apply andb_true_intro. split; [destruct neg; reflexivity|].
  rewrite forallb_app. apply andb_true_intro. split.
  - apply digits_plain. apply digits_of_spec. apply Z.div_pos; lia.
  - cbn [forallb]. apply andb_true_intro. split; [reflexivity|].
    unfold padn. rewrite forallb_app. apply andb_true_intro. split.
    + apply digits_plain. apply all_digits_zeros.
    + apply digits_plain. apply digits_of_spec. apply Z.mod_pos_bound. lia.
Qed.

