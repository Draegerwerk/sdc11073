(* C18 -- what DecimalConverter.to_py accepts lies in the lexical space of xsd:decimal and denotes
   the value of the digits. *)
From Coq Require Import List ZArith NArith Bool Lia ZifyBool Ascii String.
From SDC Require Import Scalars.Lex Scalars.Lex_Proofs Scalars.Decimal.
Import ListNotations.
Open Scope Z_scope.

(* ws* [+-]? ( digit+ ( "." digit* )? | "." digit+ ) ws*   and the Decimal it denotes *)
Definition dec_lexical (s : list ascii) (d : dec) : Prop :=
  exists w1 sg ip fp w2 neg,
    all_ws w1 = true /\ all_ws w2 = true /\ all_digits ip = true /\ all_digits fp = true /\
    ((sg = [] /\ neg = false) \/ (sg = ["+"%char] /\ neg = false) \/ (sg = ["-"%char] /\ neg = true)) /\
    ((s = w1 ++ sg ++ ip ++ w2 /\ fp = [] /\ ip <> []) \/
     (s = w1 ++ sg ++ ip ++ "."%char :: fp ++ w2 /\ (ip <> [] \/ fp <> []))) /\
    d = (neg, norm_digs (ip ++ fp), - len fp).

Lemma is_nil_false : forall l, is_nil l = false -> l <> [].
Proof. destruct l; simpl; congruence. Qed.
Lemma is_nil_true : forall l, is_nil l = true -> l = [].
Proof. destruct l; simpl; congruence. Qed.

Lemma dec_parse_lexical : forall s d, dec_parse s = Some d -> dec_lexical s d.
Proof.
  intros s d H. unfold dec_parse in H.
  destruct (lstrip_spec is_ws s) as [w1 [E1 [W1 _]]].
  destruct (take_sign (lstrip is_ws s)) as [neg r1] eqn:TS.
  destruct (take_sign_spec _ _ _ TS) as [sg [E2 SG]].
  destruct (span is_digit r1) as [ip r2] eqn:SP.
  destruct (span_spec _ _ _ _ SP) as [E3 [DI _]].
  destruct r2 as [|c r3].
  - destruct (is_nil ip) eqn:NI; [discriminate|]. inversion H; subst d.
    exists w1, sg, ip, [], [], neg. rewrite !app_nil_r in *.
    repeat split; auto. left. repeat split; auto using is_nil_false. congruence.
  - destruct (is_dot c) eqn:DOT.
    + unfold is_dot in DOT. apply ceq_eq in DOT. subst c.
      destruct (span is_digit r3) as [fp r4] eqn:SP2.
      destruct (span_spec _ _ _ _ SP2) as [E4 [DF _]].
      destruct (is_nil ip && is_nil fp) eqn:NN; [discriminate|].
      destruct (all_ws r4) eqn:W2; [|discriminate]. inversion H; subst d.
      exists w1, sg, ip, fp, r4, neg. repeat split; auto. right. split.
      * rewrite E1, E2, E3, E4. reflexivity.
      * destruct ip; [right; destruct fp; [discriminate|discriminate]|left; discriminate].
    + destruct (is_nil ip) eqn:NI; [discriminate|].
      destruct (all_ws (c :: r3)) eqn:W2; [|discriminate]. inversion H; subst d.
      exists w1, sg, ip, [], (c :: r3), neg. rewrite app_nil_r.
      repeat split; auto. left. repeat split; auto using is_nil_false.
      rewrite E1, E2, E3. reflexivity.
Qed.

