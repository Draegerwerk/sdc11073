(* C18 -- proofs about the xsd:duration model (Scalars/Duration.v): the three groups of the regular
   expression on a canonical lexical form (dur_fields_canonical_nl), the canonical form of what duration_string
   writes (duration_string_canonical), what the parsers accept is dur_lexical (dur_fields_lexical), and the
   specification of the boolean checker twin. *)
From Coq Require Import List ZArith NArith Bool Lia ZifyBool Ascii String.
From SDC Require Import Scalars.Lex Scalars.Lex_Proofs Scalars.Timestamp Scalars.Decimal Scalars.Decimal_Proofs Scalars.Duration.
Import ListNotations.
Open Scope Z_scope.

Lemma fraction_spec : forall us, 0 < us < 1000000 ->
  let f := rstrip0 (zfill6 (digits_of us)) in
  all_digits f = true /\ f <> [] /\ len f <= 6 /\ digits_val f * 10 ^ (6 - len f) = us.
Proof.
  intros us H f.
  assert (L : len (digits_of us) <= 6) by (apply len_digits_of; lia).
  pose proof (len_nonneg (digits_of us)) as L0.
  assert (Z6len : len (zfill6 (digits_of us)) = 6).
  { unfold zfill6. rewrite len_app, len_zeros by lia. lia. }
  destruct (zeros_digits_of (6 - len (digits_of us)) us) as [Z6dig Z6val]; [lia|]. fold (zfill6 (digits_of us)) in *.
  destruct (rstrip0_spec (zfill6 (digits_of us))) as [z [E Fz]]. fold f in E.
  rewrite E in Z6len, Z6dig, Z6val.
  rewrite len_app in Z6len. apply all_digits_app in Z6dig as [Df _].
  rewrite digits_val_app_zeros in Z6val by exact Fz.
  pose proof (len_nonneg z) as Lz. pose proof (len_nonneg f) as Lf.
  split; [assumption|]. split; [|split].
  - intros N. rewrite N in Z6val. change (digits_val []) with 0 in Z6val. lia.
  - lia.
  - replace (6 - len f) with (len z) by lia. lia.
Qed.

(* ... and nothing is printed for us = 0 *)
Lemma fraction_spec0 : forall us, 0 <= us < 1000000 ->
  let f := if 0 <? us then rstrip0 (zfill6 (digits_of us)) else [] in
  all_digits f = true /\ len f <= 6 /\ digits_val f * 10 ^ (6 - len f) = us /\ (0 <? us = true -> f <> []).
Proof.
  intros us H. destruct (Z.ltb_spec 0 us) as [P|P].
  - destruct (fraction_spec us) as (A & N & L & V); [lia|]. auto.
  - assert (us = 0) by lia. subst us. repeat split; try reflexivity; discriminate.
Qed.

Lemma opt_field_some : forall x d rest, all_digits d = true -> d <> [] -> is_digit x = false ->
  opt_field x (d ++ x :: rest) = (Some d, rest).
Proof.
  intros x d rest A N X. unfold opt_field.
  rewrite (span_exact is_digit d (x :: rest) A X).
  destruct d; [congruence|]. rewrite ceq_refl. reflexivity.
Qed.

(* the input does not start with "digits x" *)
Definition tail_ok (x : ascii) (l : list ascii) : Prop :=
  l = [] \/ exists d c rest, l = d ++ c :: rest /\ all_digits d = true /\ is_digit c = false /\ ceq c x = false.

Lemma opt_field_none : forall x l, tail_ok x l -> opt_field x l = (None, l).
Proof.
  intros x l [->|[d [c [rest [-> [A [B C]]]]]]]; [reflexivity|]. unfold opt_field.
  rewrite (span_exact is_digit d (c :: rest) A B).
  destruct d; [reflexivity|]. rewrite C. reflexivity.
Qed.

(* the canonical decomposition of a member of dur_lexical: [fld x o] writes an optional group "digits x", [secs o] the
   seconds group, where Some (d, []) stands for "no fraction" (what dur_fields returns for it) *)
Definition fld (x : ascii) (o : option (list ascii)) : list ascii :=
  match o with Some d => d ++ [x] | None => [] end.
Definition wf_fld (o : option (list ascii)) : Prop :=
  match o with Some d => all_digits d = true /\ d <> [] | None => True end.
Definition secs (o : option (list ascii * list ascii)) : list ascii :=
  match o with
  | Some (d, []) => d ++ ["S"%char]
  | Some (d, f) => d ++ "."%char :: f ++ ["S"%char]
  | None => []
  end.
Definition wf_secs (o : option (list ascii * list ascii)) : Prop :=
  match o with Some (d, f) => all_digits d = true /\ d <> [] /\ all_digits f = true | None => True end.

Lemma opt_field_fld : forall x o R, is_digit x = false -> wf_fld o -> tail_ok x R ->
  opt_field x (fld x o ++ R) = (o, R).
Proof.
  intros x [d|] R X W T; cbn [fld].
  - destruct W as [A N]. rewrite <- app_assoc. cbn [app]. now apply opt_field_some.
  - cbn [app]. now apply opt_field_none.
Qed.

Lemma tail_ok_fld_app : forall x y o R, wf_fld o -> is_digit y = false -> ceq y x = false ->
  tail_ok x R -> tail_ok x (fld y o ++ R).
Proof.
  intros x y [d|] R W Y C T; cbn [fld]; [|exact T].
  destruct W as [A N]. rewrite <- app_assoc. cbn [app]. right. exists d, y, R. auto.
Qed.

(* an optional line feed may follow: the pattern ends with $ *)
Definition LF : ascii := ascii_of_N 10.

Lemma tail_ok_secs_nl : forall x o nl, wf_secs o -> ceq "S"%char x = false -> ceq "."%char x = false ->
  ceq LF x = false -> (nl = [] \/ nl = [LF]) -> tail_ok x (secs o ++ nl).
Proof.
  intros x [[d [|c f]]|] nl W S D L NL; cbn [secs].
  - destruct W as [A [N F]]. rewrite <- app_assoc. cbn [app]. right. exists d, "S"%char, nl. auto.
  - destruct W as [A [N F]]. rewrite <- app_assoc. cbn [app].
    right. exists d, "."%char, ((c :: f ++ ["S"%char]) ++ nl). auto.
  - cbn [app]. destruct NL as [->| ->]; [now left|]. right. exists [], LF, []. auto.
Qed.

Lemma opt_seconds_secs_nl : forall o nl, wf_secs o -> (nl = [] \/ nl = [LF]) ->
  opt_seconds (secs o ++ nl) = (o, nl).
Proof.
  intros o nl W NL.
  destruct o as [[d [|c f]]|]; cbn [secs].
  - destruct W as [A [N F]]. unfold opt_seconds. rewrite <- app_assoc. cbn [app].
    rewrite (span_exact is_digit d ("S"%char :: nl) A eq_refl).
    destruct d; [congruence|]. reflexivity.
  - destruct W as [A [N F]]. unfold opt_seconds. rewrite <- app_assoc. cbn [app].
    match goal with |- context [span is_digit (d ++ ?r)] => rewrite (span_exact is_digit d r A eq_refl) end.
    destruct d; [congruence|].
    change (ceq "."%char "S"%char) with false. change (is_dot "."%char) with true. cbv iota.
    rewrite <- app_assoc. cbn [app].
    change (c :: f ++ "S"%char :: nl) with ((c :: f) ++ "S"%char :: nl).
    rewrite (span_exact is_digit (c :: f) ("S"%char :: nl) F eq_refl).
    reflexivity.
  - cbn [app]. destruct NL as [->| ->]; reflexivity.
Qed.

(* word for word what the integer-microsecond parser parse_duration_us computes from the three matched groups
   (the binary64-faithful parser parse_duration_f computes dur_total_us instead); linked by parse_duration_us_fields *)
Definition parse_result (h m : option (list ascii)) (sf : option (list ascii * list ascii)) : Z :=
  match sf with
  | Some (d, f) =>
      if (15 <? sig_len d) || (negb (is_nil f) && (5 <? sig_len d)) then D_UNMODELLED
      else
        let total := optval h * 3600000000 + optval m * 60000000 + digits_val d * 1000000 + frac_us f in
        if max_us <=? total then D_OVERFLOW else total
  | None =>
      let total := optval h * 3600000000 + optval m * 60000000 in
      if max_us <=? total then D_OVERFLOW else total
  end.

Lemma parse_duration_us_fields : forall s, parse_duration_us s =
  match dur_fields s with Some (h, m, sf) => parse_result h m sf | None => D_REJECT end.
Proof.
  intros s. unfold parse_duration_us, dur_fields.
  destruct s as [|p [|t r0]]; try reflexivity.
  destruct (ceq p "P"%char && ceq t "T"%char); [|reflexivity].
  destruct (opt_field "H"%char r0) as [h r1]. destruct (opt_field "M"%char r1) as [m r2].
  destruct (opt_seconds r2) as [sf r3].
  match goal with |- (if ?c then _ else _) = _ => destruct c end; reflexivity.
Qed.

Lemma dur_fields_canonical_nl : forall oh om os nl, wf_fld oh -> wf_fld om -> wf_secs os ->
  is_some oh || is_some om || is_some os = true -> (nl = [] \/ nl = [LF]) ->
  dur_fields ("P"%char :: "T"%char :: fld "H"%char oh ++ fld "M"%char om ++ secs os ++ nl) = Some (oh, om, os).
Proof.
  intros oh om os nl Wh Wm Ws Some1 NL. unfold dur_fields.
  change (ceq "P"%char "P"%char && ceq "T"%char "T"%char) with true. cbv iota.
  rewrite (opt_field_fld "H"%char oh) by
    (try reflexivity; try assumption;
     apply tail_ok_fld_app; try reflexivity; try assumption; apply tail_ok_secs_nl; try reflexivity; assumption).
  rewrite (opt_field_fld "M"%char om) by
    (try reflexivity; try assumption; apply tail_ok_secs_nl; try reflexivity; assumption).
  rewrite (opt_seconds_secs_nl os nl Ws NL).
  rewrite Some1. destruct NL as [->| ->]; reflexivity.
Qed.

Lemma dur_fields_canonical : forall oh om os, wf_fld oh -> wf_fld om -> wf_secs os ->
  is_some oh || is_some om || is_some os = true ->
  dur_fields ("P"%char :: "T"%char :: fld "H"%char oh ++ fld "M"%char om ++ secs os) = Some (oh, om, os).
Proof.
  intros oh om os Wh Wm Ws Some1.
  rewrite <- (dur_fields_canonical_nl oh om os [] Wh Wm Ws Some1 (or_introl eq_refl)).
  rewrite app_nil_r. reflexivity.
Qed.

(* the integer-microsecond parser on a canonical form *)
Lemma parse_canonical : forall oh om os, wf_fld oh -> wf_fld om -> wf_secs os ->
  is_some oh || is_some om || is_some os = true ->
  parse_duration_us ("P"%char :: "T"%char :: fld "H"%char oh ++ fld "M"%char om ++ secs os)
  = parse_result oh om os.
Proof. intros. now rewrite parse_duration_us_fields, dur_fields_canonical. Qed.

(* b3: seconds are written, b4: a fraction is written; without seconds the "0" put before the point plays their part *)
Lemma duration_string_shape : forall b1 b2 b3 b4 dh dm ds F,
  (b3 = false -> ds = ["0"%char]) -> (b4 = true -> F <> []) ->
  chars "PT"
  ++ when b1 (dh ++ ["H"%char])
  ++ when b2 (dm ++ ["M"%char])
  ++ when b3 ds
  ++ (if b4 then when (negb b3) ["0"%char] ++ "."%char :: F ++ ["S"%char] else when b3 ["S"%char])
  = "P"%char :: "T"%char
    :: fld "H"%char (if b1 then Some dh else None)
    ++ fld "M"%char (if b2 then Some dm else None)
    ++ secs (if b3 || b4 then Some (ds, if b4 then F else []) else None).
Proof.
  intros b1 b2 b3 b4 dh dm ds F H3 H4.
  change (chars "PT") with ["P"%char; "T"%char].
  destruct b4; [destruct F as [|c F]; [now elim H4|]|];
    (destruct b3; [|rewrite H3 by reflexivity]); destruct b1, b2;
    cbn [when fld secs app negb orb]; rewrite <- ?app_assoc; cbn [app]; reflexivity.
Qed.

Lemma optval_digits_of : forall n, 0 <= n -> optval (if 0 <? n then Some (digits_of n) else None) = n.
Proof.
  intros n H. destruct (Z.ltb_spec 0 n) as [L|L]; cbn [optval]; [|lia].
  now destruct (digits_of_spec n H) as [_ [_ C]].
Qed.

Lemma wf_fld_digits_of : forall n, 0 <= n -> wf_fld (if 0 <? n then Some (digits_of n) else None).
Proof.
  intros n H. destruct (0 <? n); cbn [wf_fld]; [|exact I].
  destruct (digits_of_spec n H) as [A [B _]]. auto.
Qed.

Lemma is_some_if : forall A (b : bool) (x : A), is_some (if b then Some x else None) = b.
Proof. now intros A []. Qed.

Lemma sig_len_digits_of : forall s, 0 <= s < 100 -> sig_len (digits_of s) <= 2.
Proof.
  intros s H. unfold sig_len. pose proof (len_lstrip is_zero_char (digits_of s)).
  pose proof (len_digits_of s 2 eq_refl ltac:(lia)). lia.
Qed.

(* what duration_string writes, as the three groups of the regular expression and their values *)
Lemma duration_string_canonical : forall u, 0 <= u ->
  exists oh om os s us,
    duration_string_us u = "P"%char :: "T"%char :: fld "H"%char oh ++ fld "M"%char om ++ secs os /\
    wf_fld oh /\ wf_fld om /\ wf_secs os /\ is_some oh || is_some om || is_some os = true /\
    optval oh * 3600000000 + optval om * 60000000 + s * 1000000 + us = u /\ 0 <= s < 60 /\ 0 <= us < 1000000 /\
    match os with
    | Some (ds, F) => digits_val ds = s /\ sig_len ds <= 2 /\ len F <= 6 /\ digits_val F * 10 ^ (6 - len F) = us
    | None => s = 0 /\ us = 0
    end.
Proof.
  intros u U0. unfold duration_string_us. destruct (Z.leb_spec u 0) as [L|L].
  { assert (u = 0) by lia. subst u.
    exists None, None, (Some (["0"%char], [])), 0, 0. repeat split; try reflexivity; discriminate. }
  cbv zeta.
  destruct (divmod_nonneg u 1000000 U0 eq_refl) as (E1 & B1 & S0).
  destruct (divmod_nonneg _ 60 S0 eq_refl) as (E2 & B2 & M0).
  destruct (divmod_nonneg _ 60 M0 eq_refl) as (E3 & B3 & H0).
  set (s0 := u / 1000000) in *. set (us := u mod 1000000) in *.
  set (mi0 := s0 / 60) in *. set (s := s0 mod 60) in *.
  set (h := mi0 / 60) in *. set (mi := mi0 mod 60) in *. clearbody s0 us mi0 s h mi.
  assert (EU : h * 3600000000 + mi * 60000000 + s * 1000000 + us = u) by lia.
  destruct (fraction_spec0 us B1) as (AF & FL & FV & FN). cbv zeta in *.
  destruct (digits_of_spec s ltac:(lia)) as (As & Ns & Vs).
  eexists _, _, _, s, us. split.
  { replace (s =? 0) with (negb (0 <? s)) by lia. apply duration_string_shape.
    - intros P. assert (s = 0) by lia. subst s. reflexivity.
    - intros P. specialize (FN P). now rewrite P in FN. }
  split; [apply wf_fld_digits_of, H0|]. split; [apply wf_fld_digits_of, B3|].
  rewrite (optval_digits_of h H0), (optval_digits_of mi (proj1 B3)).
  split; [|split; [|split; [exact EU|split; [exact B2|split; [exact B1|]]]]].
  - destruct ((0 <? s) || (0 <? us)); cbn [wf_secs]; auto.
  - rewrite !is_some_if. clear - EU L H0 B3 B2 B1. lia.
  - clear - B1 B2 Vs FL FV. destruct ((0 <? s) || (0 <? us)) eqn:P; [|lia].
    pose proof (sig_len_digits_of s ltac:(lia)). auto.
Qed.

Lemma span_digit_run : forall l d0 d r, span is_digit l = (d0 :: d, r) ->
  digit_run (d0 :: d) /\ l = (d0 :: d) ++ r.
Proof.
  intros l d0 d r SP. destruct (span_spec _ _ _ _ SP) as [E [A _]].
  split; [split; [discriminate|exact A]|exact E].
Qed.

Lemma opt_field_inv : forall x l o r, opt_field x l = (o, r) ->
  (o = None /\ r = l) \/ (exists d, o = Some d /\ digit_run d /\ l = d ++ x :: r).
Proof.
  intros x l o r H. unfold opt_field in H.
  destruct (span is_digit l) as [[|d0 d] [|c r']] eqn:SP; try (inversion H; auto; fail).
  apply span_digit_run in SP as [R E].
  destruct (ceq c x) eqn:C; [|inversion H; auto].
  apply ceq_eq in C. subst c. inversion H; subst o r. eauto.
Qed.

Lemma opt_seconds_inv : forall l o r, opt_seconds l = (o, r) ->
  (o = None /\ r = l) \/
  (exists d, o = Some (d, []) /\ digit_run d /\ l = d ++ "S"%char :: r) \/
  (exists d f, o = Some (d, f) /\ digit_run d /\ digit_run f /\ l = d ++ "."%char :: f ++ "S"%char :: r).
Proof.
  intros l o r H. unfold opt_seconds in H.
  destruct (span is_digit l) as [[|d0 d] [|c r']] eqn:SP; try (inversion H; auto; fail).
  apply span_digit_run in SP as [R E].
  destruct (ceq c "S"%char) eqn:C.
  { apply ceq_eq in C. subst c. inversion H; subst o r. eauto 6. }
  destruct (is_dot c) eqn:D; [|inversion H; auto].
  apply ceq_eq in D. subst c.
  destruct (span is_digit r') as [[|f0 f] [|c2 r3]] eqn:SP2; try (inversion H; auto; fail).
  apply span_digit_run in SP2 as [R2 E2].
  destruct (ceq c2 "S"%char) eqn:C2; [|inversion H; auto].
  apply ceq_eq in C2. subst c2. inversion H; subst o r. right. right.
  exists (d0 :: d), (f0 :: f). rewrite E, E2. auto.
Qed.

Lemma opt_field_dur_field : forall x l o r, opt_field x l = (o, r) ->
  exists f, l = f ++ r /\ dur_field x f /\ (is_some o = true -> f <> []).
Proof.
  intros x l o r H. apply opt_field_inv in H as [[-> ->]|[d [-> [R ->]]]].
  - exists []. split; [reflexivity|]. split; [now left|discriminate].
  - exists (d ++ [x]). split; [now rewrite <- app_assoc|]. split; [right; eauto|].
    intros _ N. apply app_eq_nil in N as [_ N]. discriminate.
Qed.

Lemma opt_seconds_dur_seconds : forall l o r, opt_seconds l = (o, r) ->
  exists f, l = f ++ r /\ dur_seconds f /\ (is_some o = true -> f <> []).
Proof.
  intros l o r H. apply opt_seconds_inv in H as [[-> ->]|[[d [-> [R ->]]]|[d [f [-> [Rd [Rf ->]]]]]]].
  - exists []. split; [reflexivity|]. split; [now left|discriminate].
  - exists (d ++ ["S"%char]). split; [now rewrite <- app_assoc|]. split; [right; left; eauto|].
    intros _ N. apply app_eq_nil in N as [_ N]. discriminate.
  - exists (d ++ "."%char :: f ++ ["S"%char]). split.
    { rewrite <- app_assoc. cbn [app]. rewrite <- app_assoc. reflexivity. }
    split; [right; right; eauto|].
    intros _ N. apply app_eq_nil in N as [_ N]. discriminate.
Qed.

Lemma dur_fields_lexical : forall s x, dur_fields s = Some x -> dur_lexical s.
Proof.
  intros s x H. unfold dur_fields in H.
  destruct s as [|p [|t r0]]; try discriminate.
  destruct (ceq p "P"%char && ceq t "T"%char) eqn:PT; [|discriminate].
  apply andb_prop in PT as [Cp Ct]. apply ceq_eq in Cp, Ct. subst p t.
  destruct (opt_field "H"%char r0) as [h r1] eqn:OH.
  destruct (opt_field "M"%char r1) as [m r2] eqn:OM.
  destruct (opt_seconds r2) as [sf r3] eqn:OS.
  match type of H with (if ?a && ?b then _ else _) = _ =>
    destruct a eqn:AtEnd; [destruct b eqn:SomeF; [clear H|discriminate]|discriminate] end.
  assert (NL : r3 = [] \/ r3 = [ascii_of_N 10]).
  { destruct r3 as [|c [|c' r3]]; [now left| |discriminate]. right.
    apply N.eqb_eq in AtEnd. unfold code in AtEnd. rewrite <- AtEnd, ascii_N_embedding. reflexivity. }
  apply opt_field_dur_field in OH as (fh & -> & DH & NH), OM as (fm & -> & DM & NM).
  apply opt_seconds_dur_seconds in OS as (fs & -> & DS & NS).
  exists fh, fm, fs, r3. repeat split; try assumption.
  intros N. apply app_eq_nil in N as [N1 N]. apply app_eq_nil in N as [N2 N3].
  destruct (is_some h); [now apply NH|]. destruct (is_some m); [now apply NM|].
  destruct (is_some sf); [now apply NS|]. discriminate.
Qed.

Lemma check_duration_spec : forall u, check_duration u = true <-> parse_duration_us (duration_string_us u) = u.
Proof. intros u. unfold check_duration. apply Z.eqb_eq. Qed.
