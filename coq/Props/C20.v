(* C20 -- Query services return exactly the selected states and texts.
   Property theorems only (model: Query/Model.v). *)
From Coq Require Import List ZArith Permutation.
From SDC Require Import Common.ListFacts Query.Model Query.Proofs.
Import ListNotations.
Open Scope Z_scope.

(* GetMdState with a non-empty handle list: every state at most once; everything returned is selected by
   some requested handle; everything a requested handle selects is returned *)
Theorem C20_getmdstate_exact : forall flag m handles, handles <> [] ->
  let r := get_md_state flag m handles in
  keys_distinct r /\
  (forall s, In s r -> exists h, In h handles /\ In s (resolve_state flag m h)) /\
  (forall h s, In h handles -> In s (resolve_state flag m h) -> exists y, In y r /\ qs_eqb y s = true).
Proof. intros flag m [|h0 hs] N; [contradiction|]. apply dedup_flat_map_exact. Qed.
Print Assumptions C20_getmdstate_exact.

(* what one handle selects: a context-state handle selects that state, a descriptor handle its states;
   a handle that matches nothing contributes nothing *)
Theorem C20_handle_rule : forall flag m h s,
  In s (resolve_state flag m h) ->
  (In s (qm_states m) /\ q_dh s = h) \/
  (flag = true /\ In s (qm_cstates m) /\ (q_handle s = h \/ q_dh s = h)).
Proof. exact resolve_state_sound. Qed.
Print Assumptions C20_handle_rule.

Theorem C20_unknown_handle_nothing : forall flag m h,
  (forall s, In s (qm_states m) -> q_dh s <> h) ->
  (forall s, In s (qm_cstates m) -> q_dh s <> h /\ q_handle s <> h) ->
  resolve_state flag m h = [].
Proof.
  intros flag m h H1 H2. unfold resolve_state.
  rewrite !filter_all_false by (intros s Hs; apply Z.eqb_neq; first [now apply H1 | now apply H2]).
  now destruct flag.
Qed.
Print Assumptions C20_unknown_handle_nothing.

(* empty handle list: all states *)
Theorem C20_getmdstate_all : forall flag m,
  get_md_state flag m [] = qm_states m ++ (if flag then qm_cstates m else []).
Proof. reflexivity. Qed.
Print Assumptions C20_getmdstate_all.

(* GetContextStates *)
Theorem C20_getcontextstates_exact : forall m handles, handles <> [] ->
  let r := get_context_states m handles in
  keys_distinct r /\
  (forall s, In s r -> exists h, In h handles /\ In s (resolve_ctx m h)) /\
  (forall h s, In h handles -> In s (resolve_ctx m h) -> exists y, In y r /\ qs_eqb y s = true).
Proof. intros m [|h0 hs] N; [contradiction|]. apply dedup_flat_map_exact. Qed.
Print Assumptions C20_getcontextstates_exact.

(* an MDS handle selects exactly the context states of THAT MDS *)
Theorem C20_mds_handle : forall m h s,
  (forall c, In c (qm_cstates m) -> q_handle c <> h /\ q_dh c <> h) -> In h (qm_mds m) ->
  (In s (resolve_ctx m h) <-> In s (qm_cstates m) /\ q_mds s = h).
Proof.
  intros m h s Hn Hm. unfold resolve_ctx.
  rewrite !filter_all_false by (intros c Hc; apply Z.eqb_neq; now apply Hn).
  rewrite (proj2 (existsb_Zeqb_In h (qm_mds m)) Hm), filter_In, Z.eqb_eq. reflexivity.
Qed.
Print Assumptions C20_mds_handle.

(* request shape: the answer depends only on the SET of requested handles - a handle named twice or a different
   order of the handles selects the same states (by key) *)
Theorem C20_getmdstate_depends_on_handle_set : forall flag m hs1 hs2, hs1 <> [] -> hs2 <> [] ->
  (forall h, In h hs1 -> In h hs2) ->
  forall s, In s (get_md_state flag m hs1) -> exists y, In y (get_md_state flag m hs2) /\ qs_eqb y s = true.
Proof. intros flag m [|a hs1] [|b hs2] N1 N2; try contradiction. apply dedup_flat_map_mono. Qed.
Print Assumptions C20_getmdstate_depends_on_handle_set.

Theorem C20_getcontextstates_depends_on_handle_set : forall m hs1 hs2, hs1 <> [] -> hs2 <> [] ->
  (forall h, In h hs1 -> In h hs2) ->
  forall s, In s (get_context_states m hs1) -> exists y, In y (get_context_states m hs2) /\ qs_eqb y s = true.
Proof. intros m [|a hs1] [|b hs2] N1 N2; try contradiction. apply dedup_flat_map_mono. Qed.
Print Assumptions C20_getcontextstates_depends_on_handle_set.

(* containment, for every request incl. the empty one: nothing is returned that the MDIB does not hold; GetMdState
   returns a context state only when the provider is configured to do so; GetContextStates returns context
   states only *)
Theorem C20_nothing_outside_the_mdib : forall flag m handles s,
  (In s (get_md_state flag m handles) -> In s (qm_states m) \/ (flag = true /\ In s (qm_cstates m))) /\
  (In s (get_context_states m handles) -> In s (qm_cstates m)).
Proof. intros flag m handles s. split; [apply get_md_state_contained | apply get_context_states_contained]. Qed.
Print Assumptions C20_nothing_outside_the_mdib.

(* GetLocalizedText: every returned text satisfies every given constraint (references, version or latest
   version, languages, text widths, number of lines) *)
Theorem C20_text_filter_sound : forall st refs version langs widths lines both_key t,
  (forall r e, In r refs -> In e st -> fst e = r -> forall x, In x (snd e) -> x_ref x = r) ->
  In t (filter_texts st refs version langs widths lines both_key) ->
  text_ok st refs version langs widths lines t.
Proof. exact filter_texts_sound. Qed.
Print Assumptions C20_text_filter_sound.

(* without constraints: all texts of the latest version *)
Theorem C20_text_no_constraints_latest : forall st both_key t,
  In t (all_texts st) -> x_ver t = max_version st ->
  (forall e e', In e st -> In e' st -> fst e = fst e' -> e = e') ->
  In t (filter_texts st [] None [] [] [] both_key).
Proof.
  intros st both_key t Ht Hv Hu. unfold filter_texts.
  destruct (all_texts st) eqn:Eall; [contradiction|]. rewrite <- Eall in Ht.
  rewrite filter_body_unsized. apply sel_texts_in.
  split; [now apply texts_of_all|]. split; [reflexivity|]. now apply opt_eqb_eq.
Qed.
Print Assumptions C20_text_no_constraints_latest.

Theorem C20_languages_exact : forall st,
  NoDup (supported_languages st) /\
  (forall l, In l (supported_languages st) <-> exists t, In t (all_texts st) /\ x_lang t = l).
Proof. exact supported_languages_exact. Qed.
Print Assumptions C20_languages_exact.

(* histories on one storage
   [state_after ops] is the storage after any sequence of add / GetSupportedLanguages / GetLocalizedText
   operations (a GetLocalizedText request creates empty entries for unknown Refs: [st_touch]). *)

(* the storage stays a dict whose entry for a Ref holds texts of that Ref only ... *)
Theorem C20_history_storage_wf : forall ops, st_wf (state_after ops).
Proof. exact state_after_wf. Qed.
Print Assumptions C20_history_storage_wf.

(* ... and holds exactly the added texts, as a multiset: no query stores, drops or duplicates a text *)
Theorem C20_history_holds_exactly_added : forall ops, Permutation (all_texts (state_after ops)) (added ops).
Proof. exact state_after_holds_added. Qed.
Print Assumptions C20_history_holds_exactly_added.

(* soundness at every moment of every history, without side condition on the storage *)
Theorem C20_history_text_sound : forall ops refs version langs widths lines both_key t,
  In t (filter_texts (state_after ops) refs version langs widths lines both_key) ->
  text_ok (state_after ops) refs version langs widths lines t.
Proof.
  intros ops refs version langs widths lines both_key t.
  apply filter_texts_sound, (wf_keys_own_refs _ (state_after_wf ops)).
Qed.
Print Assumptions C20_history_text_sound.

(* exactness: without TextWidth / NumberOfLines the answer IS the selection (every selected stored text
   exactly as often as it is stored), for requests that name each Ref once *)
Theorem C20_text_exact_without_size_constraints : forall st refs version langs both_key,
  st_wf st -> NoDup refs ->
  Permutation (filter_texts st refs version langs [] [] both_key)
              (filter (text_selected st refs version langs) (all_texts st)).
Proof. exact filter_texts_exact. Qed.
Print Assumptions C20_text_exact_without_size_constraints.

Theorem C20_history_text_exact : forall ops refs version langs both_key, NoDup refs ->
  Permutation (filter_texts (state_after ops) refs version langs [] [] both_key)
              (filter (text_selected (state_after ops) refs version langs) (all_texts (state_after ops))).
Proof. intros ops refs version langs both_key. apply filter_texts_exact, state_after_wf. Qed.
Print Assumptions C20_history_text_exact.

(* GetSupportedLanguages after any history: exactly the languages of the texts added so far, each once *)
Theorem C20_history_languages_exact : forall ops,
  NoDup (supported_languages (state_after ops)) /\
  (forall l, In l (supported_languages (state_after ops)) <-> exists t, In t (added ops) /\ x_lang t = l).
Proof.
  intros ops. destruct (supported_languages_exact (state_after ops)) as [A B]. split; [assumption|].
  intros l. rewrite B. apply perm_ex_in, state_after_holds_added.
Qed.
Print Assumptions C20_history_languages_exact.

(* the answers are functions of the stored MULTISET: two storages with the same texts (whatever the order of
   keys and texts, whatever empty entries) answer alike; a cache or index must therefore be invisible *)
Theorem C20_answers_depend_on_stored_multiset : forall st1 st2 refs version langs bk1 bk2,
  st_wf st1 -> st_wf st2 -> Permutation (all_texts st1) (all_texts st2) -> NoDup refs ->
  Permutation (filter_texts st1 refs version langs [] [] bk1) (filter_texts st2 refs version langs [] [] bk2) /\
  (forall l, In l (supported_languages st1) <-> In l (supported_languages st2)).
Proof.
  intros st1 st2 refs version langs bk1 bk2 W1 W2 P Hnd. split.
  - eapply Permutation_trans; [now apply filter_texts_exact|].
    eapply Permutation_trans; [|apply Permutation_sym; now apply filter_texts_exact].
    erewrite filter_ext; [apply perm_filter, P|].
    intros t. unfold text_selected, eff_version. now rewrite (max_version_perm _ _ P).
  - intros l. rewrite (proj2 (supported_languages_exact st1)), (proj2 (supported_languages_exact st2)).
    now apply perm_ex_in.
Qed.
Print Assumptions C20_answers_depend_on_stored_multiset.

(* a history: languages asked, a known Ref gets a new language, an unknown Ref is requested and stored later,
   width / line variants with equal Ref + Lang + Version are all returned *)
Example C20_history_nonvacuous :
  let t1 := mkT 1 1 1 (Some 1) (Some 0) 1 in let t2 := mkT 2 1 2 (Some 1) (Some 0) 1 in
  let t3 := mkT 3 1 1 (Some 1) (Some 2) 2 in let t4 := mkT 4 7 3 (Some 1) None 1 in
  run_hist (fun _ => 0) [LAdd t1; LLangs; LAdd t2; LLangs; LText [7] None [] [] []; LAdd t4; LLangs;
                         LAdd t3; LAdd t1; LText [] None [1] [] []; LText [1] None [] [0; 2] []] []
  = [[1]; [1; 2]; []; [1; 2; 3]; [1; 3; 1]; [1; 3; 2; 2]].
Proof. vm_compute. reflexivity. Qed.

Example C20_nonvacuous :
  let m := mkQM [mkQ false 1 1 100; mkQ false 2 2 200]
                [mkQ true 11 5 100; mkQ true 12 5 100; mkQ true 13 6 200] [100; 200] in
  get_md_state true m [11; 5; 11; 1; 99] = [mkQ true 11 5 100; mkQ true 12 5 100; mkQ false 1 1 100] /\
  get_context_states m [200; 13] = [mkQ true 13 6 200].
Proof. vm_compute. split; reflexivity. Qed.
