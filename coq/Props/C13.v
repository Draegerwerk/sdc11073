(* C13 -- Request handling is total: any input gets a response; no hang, crash (or XXE: oracle only).
   The property theorems; they rest on the lemmas of Http/Chunk_Proofs.v, Http/Dispatch_Proofs.v and
   Http/Connection_Proofs.v.  The model is the code WITH the proposed repairs
   fixes/C13_reader_framing.diff and fixes/C13_handler_total.diff; the behaviour of the pinned source
   is kept as [dechunk_found], [handle_post_found], [handle_get_found] for the [_as_found] theorems.
   XML parsing (entity handling) and schema validation are not modelled: they appear as the stage
   outcome [p_parse]; that part of the property is judged on the implementation only. *)
From Coq Require Import List NArith Lia.
From SDC Require Import Http.Chunk Http.Chunk_Proofs Http.Dispatch Http.Dispatch_Proofs Http.Connection
     Http.Connection_Proofs Http.Gen_Params.
Import ListNotations.
Open Scope N_scope.

(* 3 * length + 32 is the number of read calls the watchdog of the harness allows the implementation
   (CapStream in harness/impl/c17_impl.py, checked in harness/props/c13.py) *)
Lemma fuel_bound s : (fuel_for s <= 3 * length (sdata s) + 32)%nat.
Proof. unfold fuel_for. lia. Qed.

(* (i) the body reader: any header classes, any bytes, any read granularity *)
Theorem C13_reader_terminates : forall h s,
  exists fuel, (fuel <= 3 * length (sdata s) + 32)%nat /\
               read_request_body hdr_max available_encodings fuel h s <> RFuel.
Proof.
  exact (fun h s => ex_intro _ (fuel_for s)
           (conj (fuel_bound s) (request_terminates hdr_max available_encodings h s))).
Qed.
Print Assumptions C13_reader_terminates.

Theorem C13_dechunk_terminates : forall fuel s,
  (length (sdata s) < fuel)%nat -> dechunk hdr_max fuel s <> DFuel.
Proof. intros fuel s H E. pose proof (dechunk_spec hdr_max fuel s) as S. rewrite E in S. lia. Qed.
Print Assumptions C13_dechunk_terminates.

(* what was consumed is exactly one framed message; the bytes behind it stay in the stream *)
Theorem C13_reader_no_overread : forall fuel h s b s',
  (read_request_body hdr_max available_encodings fuel h s = RBody b s' \/
   exists enc, read_request_body hdr_max available_encodings fuel h s = RDecode enc b s') ->
  exists consumed, sdata s = consumed ++ sdata s' /\ consumed_ok h consumed b.
Proof. exact (fun fuel h s => request_no_overread hdr_max available_encodings fuel h s). Qed.
Print Assumptions C13_reader_no_overread.

(* the chunk loop of the pinned source never ends when the data ends inside a chunk *)
Theorem C13_reader_spins_as_found :
  exists s, forall fuel, dechunk_found hdr_max fuel s = DFuel.
Proof. exact (ex_intro _ _ (dechunk_found_spins hdr_max ltac:(unfold hdr_max; lia))). Qed.
Print Assumptions C13_reader_spins_as_found.

(* (ii) MessageConverterMiddleware.do_post: every combination of parse / dispatch outcomes is turned
   into (status, response-or-fault); a response only when both stages completed *)
Theorem C13_post_total : forall st,
  p_fault_reply st = true -> p_recover st = true ->
  exists s k, do_post st = Answer s k /\
              (k = KResponse \/ k = KFault) /\
              (k = KResponse <-> (p_parse st = SOk /\ p_dispatch st = SOk)) /\
              (k = KResponse -> s = 200).
Proof. exact do_post_total. Qed.
Print Assumptions C13_post_total.

(* one POST from the socket to the answer: reader x dispatcher x path x middleware stages *)
Theorem C13_request_answered : forall read_ok dispatcher p st reason_ok,
  ((p_fault_reply st = true /\ p_recover st = true) \/ reason_ok = true) ->
  exists s k, serve_post read_ok dispatcher p st reason_ok = Answer s k.
Proof.
  intros read_ok dispatcher p st reason_ok H. apply handle_post_total. simpl.
  destruct H as [[F R]|H]; [left | now right].
  destruct (do_post_total st F R) as (s & k & E & _). rewrite E. discriminate.
Qed.
Print Assumptions C13_request_answered.

Theorem C13_rejected_before_dispatch : forall read_ok dispatcher p st reason_ok,
  read_ok = false \/ dispatcher = false \/ p <> PathKnown ->
  exists s k, serve_post read_ok dispatcher p st reason_ok = Answer s k /\ 400 <= s /\ (k = KEmpty \/ k = KText).
Proof. exact (fun read_ok dispatcher p st reason_ok => handle_post_rejects (mkIn read_ok dispatcher p (do_post st) reason_ok)). Qed.
Print Assumptions C13_rejected_before_dispatch.

Theorem C13_get_answered : forall dispatcher p st,
  (p = PathKnown -> g_urlparse st = true) ->
  exists s k, serve_get dispatcher p st = Answer s k.
Proof.
  intros dispatcher p st H. apply handle_get_answers. cbn. intros ->.
  destruct (do_get_total st (H eq_refl)) as (s & k & E & _). rewrite E. discriminate.
Qed.
Print Assumptions C13_get_answered.

(* a rejected request leaves the provider state alone.  Premise (validated on the implementation by the
   snapshot oracle of the bytes stream): service handlers are atomic, a handler that does not complete
   has not changed the state. *)
Theorem C13_rejected_state_unchanged : forall (S : Type) (handler : S -> stage * S),
  (forall s, fst (handler s) <> SOk -> snd (handler s) = s) ->
  forall parse fault_reply recover s,
  rejected (fst (do_post_state S handler parse fault_reply recover s)) = true ->
  snd (do_post_state S handler parse fault_reply recover s) = s.
Proof.
  intros S handler atomic parse fault_reply recover s. unfold do_post_state.
  destruct parse; try reflexivity. pose proof (atomic s) as A.
  destruct (handler s) as [[] s']; [discriminate | intros _; apply A; discriminate ..].
Qed.
Print Assumptions C13_rejected_state_unchanged.

(* parse / validation failures never reach a handler at all, atomic or not *)
Theorem C13_unparsed_state_unchanged : forall (S : Type) (handler : S -> stage * S) parse fault_reply recover s,
  parse <> SOk -> snd (do_post_state S handler parse fault_reply recover s) = s.
Proof. intros S handler parse fault_reply recover s H. unfold do_post_state. now destruct parse. Qed.
Print Assumptions C13_unparsed_state_unchanged.

(* the pinned source: a failing body reader leaves do_POST as an exception, an unknown path leaves do_GET *)
Theorem C13_post_escapes_as_found :
  exists i, i_component i <> Propagates /\ handle_post_found i = Propagates.
Proof. exists (mkIn false true PathKnown (Answer 200 KResponse) true). split; [discriminate|reflexivity]. Qed.
Print Assumptions C13_post_escapes_as_found.

Theorem C13_get_escapes_as_found :
  exists i, i_component i <> Propagates /\ handle_get_found i = Propagates.
Proof. exists (mkIn true true PathUnknown (Answer 200 KResponse) true). split; [discriminate|reflexivity]. Qed.
Print Assumptions C13_get_escapes_as_found.

(* (iii) the request loop of a kept-alive connection.  The stream holds the body bytes of the requests one
   behind the other (request lines and header blocks are http.server's business).  If every body is framed
   as its own headers announce, then - WHATEVER the outcome of each request: unknown path, missing dispatcher,
   unsupported or corrupt coding, handler fault - the answers are exactly those of every request served on
   its own body alone, up to the first request that closes the connection: no byte of a request's body is
   ever treated as (part of) another request.  Model = code with fixes/C13_get_body_unread.diff. *)
Theorem C13_connection_aligned : forall rs ws tail,
  Forall2 (fun r w => framed hdr_max (c_hdr r) w) rs ws ->
  fst (run_conn (step hdr_max available_encodings) rs (uncapped (concat ws ++ tail)))
  = serve_isolated hdr_max available_encodings rs ws.
Proof. exact (fun rs ws tail F => proj1 (run_conn_framed hdr_max available_encodings rs ws tail F)). Qed.
Print Assumptions C13_connection_aligned.

(* one request: same answer and close decision as on its own body alone, and if the connection stays open the
   stream stands exactly behind this request's body *)
Theorem C13_request_consumes_its_body : forall r w rest,
  framed hdr_max (c_hdr r) w ->
  exists a c s1 s0,
    step hdr_max available_encodings r (uncapped (w ++ rest)) = (a, s1, c) /\
    step hdr_max available_encodings r (uncapped w) = (a, s0, c) /\
    (c = false -> s1 = uncapped rest).
Proof. exact (step_framed hdr_max available_encodings). Qed.
Print Assumptions C13_request_consumes_its_body.

Theorem C13_connection_consumes_exactly : forall rs ws tail,
  Forall2 (fun r w => framed hdr_max (c_hdr r) w) rs ws ->
  Forall (fun rw => snd (step hdr_max available_encodings (fst rw) (uncapped (snd rw))) = false) (combine rs ws) ->
  snd (run_conn (step hdr_max available_encodings) rs (uncapped (concat ws ++ tail))) = uncapped tail.
Proof. exact (fun rs ws tail F => proj2 (run_conn_framed hdr_max available_encodings rs ws tail F)). Qed.
Print Assumptions C13_connection_consumes_exactly.

(* a do_POST that reads the body only after the path lookup, and do_GET as found (body ignored, connection
   kept): the body of an answered request stays in front of the next request *)
Theorem C13_lazy_body_read_refuted :
  exists r w rest,
    framed hdr_max (c_hdr r) w /\ w <> [] /\
    step_lazy hdr_max available_encodings r (uncapped (w ++ rest)) = (Answer 404 KEmpty, uncapped (w ++ rest), false).
Proof. exact (step_lazy_misaligned hdr_max available_encodings). Qed.
Print Assumptions C13_lazy_body_read_refuted.

Theorem C13_get_body_as_found_refuted :
  exists r w rest a,
    framed hdr_max (c_hdr r) w /\ w <> [] /\
    step_get_found hdr_max available_encodings r (uncapped (w ++ rest)) = (a, uncapped (w ++ rest), false).
Proof. exact (step_get_found_misaligned hdr_max available_encodings). Qed.
Print Assumptions C13_get_body_as_found_refuted.

(* non-trivial instances: a body cut inside a chunk is a clean error within the fuel bound, with the
   as-found loop it is not; a schema-invalid message (parse = HTTP error 400) on a known path is
   answered 400 + fault, the same bytes on an unknown path 404 *)
Example C13_nonvacuous :
  (let s := uncapped [53; 13; 10; 97; 98; 99] in
   read_request_body hdr_max available_encodings (fuel_for s) (mkH true CLAbsent None) s = RErr EEofInChunk (uncapped []) /\
   dechunk_found hdr_max 1000 s = DFuel) /\
  serve_post true true PathKnown (mkPost (SHttp 400) true SOk true) true = Answer 400 KFault /\
  serve_post true true PathUnknown (mkPost (SHttp 400) true SOk true) true = Answer 404 KEmpty /\
  serve_post false true PathKnown (mkPost SOk true SOk true) true = Answer 400 KEmpty.
Proof. vm_compute. repeat split. Qed.
