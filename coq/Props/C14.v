(* C14 -- WS-Discovery answers and records exactly what its matching rules prescribe.
   Property theorems; the lemmas they rest on are in Wsd/Match_Proofs.v, Wsd/Table_Proofs.v and
   Wsd/Udp_Proofs.v.  Strings are UTF-8 byte lists, urlsplit / unquote are the
   byte-level urllib.parse model (Location/Quote.v); [match_consts] (MatchBy URIs) and [known_ids_cap]
   are regenerated from the source on every run.  fixed = true is the code with the proposed repair
   (a ValueError of urlsplit means "no match"), fixed = false the code as it is. *)
From Coq Require Import List ZArith Bool.
From SDC Require Import Location.Quote Location.Loc Wsd.Uri Wsd.Match Wsd.Match_Proofs
  Wsd.Udp Wsd.Udp_Proofs Wsd.Gen_Params Wsd.Table Wsd.Table_Proofs Wsd.Gen_Match.
Import ListNotations.

(* RFC 3986 rule on URI records: for well-formed URIs (any scheme case, optional authority, any
   segments incl. empty ones, trailing slash, %-escapes of any case, optional query / fragment) rendered
   to text, match_scope answers True exactly when scheme and authority agree case-insensitively and
   the percent-decoded segments of the first are a segment-wise prefix of those of the second; query
   and fragment play no role.  Holds for the code as it is and for the repaired code. *)
Theorem C14_rfc3986_spec : forall fixed (badf : bytes -> bool) mb u1 u2,
  wf_uri u1 = true -> wf_uri u2 = true -> is_rfc match_consts mb = true ->
  (match_scope match_consts fixed (fun s => urlsplit (badf s) s) mb (render u1) (render u2) = Ret true <->
   lower_s (u_scheme u1) = lower_s (u_scheme u2) /\
   lower_s (opt_val (u_auth u1)) = lower_s (opt_val (u_auth u2)) /\
   is_prefix (decoded_parts u1) (decoded_parts u2)).
Proof.
  intros fixed badf mb u1 u2 H1 H2 Hmb. rewrite match_scope_rfc, match_rfc_spec, rfc_spec_eq by auto.
  rewrite !urlsplit_render by assumption. cbn [rfc_cond].
  rewrite !lower_s_idem, !split_path_parts by assumption. reflexivity.
Qed.
Print Assumptions C14_rfc3986_spec.

(* the same rule on arbitrary texts, in terms of the components urlsplit finds (any urlsplit) *)
Theorem C14_rfc3986_text : forall split fixed my other,
  match_rfc fixed split my other = Ret true <-> rfc_spec split my other.
Proof. exact match_rfc_spec. Qed.
Print Assumptions C14_rfc3986_text.

Theorem C14_match_reflexive : forall split fixed a,
  split a <> SplitErr -> match_rfc fixed split a a = Ret true.
Proof. exact match_rfc_refl. Qed.
Print Assumptions C14_match_reflexive.

Theorem C14_match_transitive : forall split fixed a b c,
  match_rfc fixed split a b = Ret true -> match_rfc fixed split b c = Ret true ->
  match_rfc fixed split a c = Ret true.
Proof.
  intros split fixed a b c. rewrite !match_rfc_spec, !rfc_spec_eq.
  destruct (split a), (split b), (split c); cbn [rfc_cond]; try tauto.
  intros (A1 & A2 & A3) (B1 & B2 & B3). split; [congruence|]. split; [congruence|].
  exact (is_prefix_trans _ _ _ A3 B3).
Qed.
Print Assumptions C14_match_transitive.

(* which MatchBy values select which rule (constants regenerated from the source): absent, empty,
   rfc3986, ldap and uuid all use the RFC 3986 rule; strcmp0 is its own rule *)
Theorem C14_matchby_values :
  is_rfc match_consts None = true /\ is_rfc match_consts (Some []) = true /\
  is_rfc match_consts (Some (m_uri match_consts)) = true /\
  is_rfc match_consts (Some (m_ldap match_consts)) = true /\
  is_rfc match_consts (Some (m_uuid match_consts)) = true /\
  is_rfc match_consts (Some (m_strcmp match_consts)) = false /\
  is_strcmp match_consts (Some (m_strcmp match_consts)) = true.
Proof. vm_compute. repeat split; reflexivity. Qed.
Print Assumptions C14_matchby_values.

(* string matching is exact *)
Theorem C14_strcmp_exact : forall fixed split mb a b,
  is_rfc match_consts mb = false -> is_strcmp match_consts mb = true ->
  match_scope match_consts fixed split mb a b = Ret (bytes_eqb a b) /\ (bytes_eqb a b = true <-> a = b).
Proof. intros. split; [now apply match_scope_strcmp|apply Location.Proofs.bytes_eqb_eq]. Qed.
Print Assumptions C14_strcmp_exact.

(* any other MatchBy value matches nothing *)
Theorem C14_unknown_matchby : forall split fixed mb a b,
  is_rfc match_consts mb = false -> is_strcmp match_consts mb = false ->
  match_scope match_consts fixed split mb a b = Ret false.
Proof. exact (match_scope_other match_consts). Qed.
Print Assumptions C14_unknown_matchby.

(* the rule URIs are compared as they are: an upper-cased or extended rule URI selects no rule at all *)
Theorem C14_matchby_exact_uri :
  let none mb := is_rfc match_consts (Some mb) || is_strcmp match_consts (Some mb) in
  none (upper_s (m_uri match_consts)) = false /\ none (upper_s (m_strcmp match_consts)) = false /\
  none (m_uri match_consts ++ [47]%N) = false /\ none (m_strcmp match_consts ++ [47]%N) = false /\
  none [32]%N = false.
Proof. vm_compute. repeat split; reflexivity. Qed.
Print Assumptions C14_matchby_exact_uri.

(* ... and under such a rule nothing matches at any level, identical text included: not one scope against a
   service's scope list, not a service against a filter with at least one scope, no service of a list *)
Theorem C14_unknown_rule_matches_nothing : forall fixed split mb u us srv sv svs types,
  is_rfc match_consts mb = false -> is_strcmp match_consts mb = false ->
  scope_in_list match_consts fixed split mb u srv = Ret false /\
  matches_filter match_consts fixed split sv types (Some (mb, u :: us)) = Ret false /\
  filter_services match_consts fixed split svs types (Some (mb, u :: us)) = Ret [].
Proof.
  intros. split; [now apply scope_in_list_other|]. split; [now apply matches_filter_other|now apply filter_services_other].
Qed.
Print Assumptions C14_unknown_rule_matches_nothing.

(* a text that is not a well-formed URI matches nothing under the RFC 3986 rule, not even itself (repaired code) *)
Theorem C14_malformed_matches_nothing : forall split mb a b,
  is_rfc match_consts mb = true -> split a = SplitErr \/ split b = SplitErr ->
  match_scope match_consts true split mb a b = Ret false.
Proof. exact (match_scope_malformed match_consts). Qed.
Print Assumptions C14_malformed_matches_nothing.

(* a requested scope that is VERBATIM among the scopes of a service: the verdict is decided by the requested rule
   alone -- RFC 3986 rules: matched iff the text is a well-formed URI; strcmp0: matched; any other rule: not matched *)
Theorem C14_identical_text_by_rule : forall split mb u es, In u es ->
  scope_in_list match_consts true split mb u (Some es) =
  Ret (if is_rfc match_consts mb then negb (is_err (split u)) else is_strcmp match_consts mb).
Proof. exact (identical_text_by_rule match_consts). Qed.
Print Assumptions C14_identical_text_by_rule.

(* repaired code: match_scope always returns a verdict, whatever urlsplit does with the two texts *)
Theorem C14_match_total : forall split mb a b,
  exists r, match_scope match_consts true split mb a b = Ret r.
Proof. exact (match_scope_total match_consts). Qed.
Print Assumptions C14_match_total.

(* the code as it is raises on a scope whose authority urlsplit rejects ("http://[x/a") *)
Theorem C14_match_total_unpatched_refuted : exists a b,
  match_scope match_consts false (urlsplit false) None a b = Raise.
Proof.
  exists [104; 116; 116; 112; 58; 47; 47; 91; 120; 47; 97]%N, [104; 116; 116; 112; 58; 47; 47; 104; 47; 97]%N.
  vm_compute. reflexivity.
Qed.
Print Assumptions C14_match_total_unpatched_refuted.

(* a Probe is answered with exactly the published services that offer all requested types and match
   all requested scopes under the requested rule, one ProbeMatch each, in publication order; nothing
   else changes (repaired code) *)
Theorem C14_probe_exact : forall split allow d types scopes,
  handle match_consts true split allow d (MProbe types scopes) =
  (d, map OProbeMatch (filter (matchesb match_consts true split types scopes) (t_values (local d)))).
Proof. intros. simpl. now rewrite filter_services_ret. Qed.
Print Assumptions C14_probe_exact.

(* a Probe that names a rule the node does not implement and asks for at least one scope is not answered, whatever
   the published services offer (identical scope texts included) *)
Theorem C14_probe_unknown_rule_unanswered : forall fixed split allow d types mb u us,
  is_rfc match_consts mb = false -> is_strcmp match_consts mb = false ->
  handle match_consts fixed split allow d (MProbe types (Some (mb, u :: us))) = (d, []).
Proof. intros fixed split allow d types mb u us H1 H2. cbn [handle]. now rewrite filter_services_other by auto. Qed.
Print Assumptions C14_probe_unknown_rule_unanswered.

Theorem C14_probe_match_only_for_probe : forall fixed split allow d m s,
  In (OProbeMatch s) (snd (handle match_consts fixed split allow d m)) -> exists types scopes, m = MProbe types scopes.
Proof.
  intros fixed split allow d m s H.
  destruct (handle_out_inv _ _ _ _ d m _ H) as [(e & E)|[(t & sc & s' & -> & _)|(e & s' & _ & _ & E)]]; try discriminate.
  eauto.
Qed.
Print Assumptions C14_probe_match_only_for_probe.

(* a ResolveMatch leaves the node only in answer to a Resolve for a published endpoint reference, and
   describes that service; and every such Resolve is answered *)
Theorem C14_resolve_only_published : forall fixed split allow d m s,
  In (OResolveMatch s) (snd (handle match_consts fixed split allow d m)) ->
  exists epr, m = MResolve epr /\ t_get epr (local d) = Some s.
Proof.
  intros fixed split allow d m s H.
  destruct (handle_out_inv _ _ _ _ d m _ H) as [(e & E)|[(t & sc & s' & _ & E)|(e & s' & -> & G & E)]]; try discriminate.
  injection E as ->. eauto.
Qed.
Print Assumptions C14_resolve_only_published.

Theorem C14_resolve_published_answered : forall fixed split allow d epr s,
  t_get epr (local d) = Some s -> handle match_consts fixed split allow d (MResolve epr) = (d, [OResolveMatch s]).
Proof. intros fixed split allow d epr s H. simpl. now rewrite H. Qed.
Print Assumptions C14_resolve_published_answered.

(* after ANY sequence of received messages (Hello / ProbeMatches / ResolveMatches / Bye / Probe /
   Resolve / unknown, with or without AppSequence, any versions, any order, duplicates), for every
   non-empty endpoint reference: the table has an entry iff there was an announcement since the last
   Bye, and the entry's metadata version is the highest one announced since then *)
Theorem C14_table_max_version : forall fixed split allow ms epr, epr <> []%list ->
  table_entry_ok epr (rev (flat_map (tevs_of allow) ms))
                 (t_get epr (remote (handle_all match_consts fixed split allow (mkD [] []) ms))).
Proof.
  intros fixed split allow ms epr H. rewrite handle_all_remote. simpl remote.
  change (@nil (bytes * service)) with (table_of []). rewrite table_of_app, app_nil_r.
  now apply table_max_version.
Qed.
Print Assumptions C14_table_max_version.

(* a Bye removes the entry of its endpoint reference and nothing else, whatever it carries besides the endpoint
   reference (AppSequence or not, MetadataVersion lower / equal / higher than the recorded one, Types, Scopes, XAddrs) *)
Theorem C14_bye_clears : forall fixed split allow d epr bx,
  handle match_consts fixed split allow d (MBye epr bx) = (mkD (t_del epr (remote d)) (local d), []) /\
  t_get epr (remote (fst (handle match_consts fixed split allow d (MBye epr bx)))) = None /\
  (forall k, bytes_eqb k epr = false ->
             t_get k (remote (fst (handle match_consts fixed split allow d (MBye epr bx)))) = t_get k (remote d)).
Proof.
  intros fixed split allow d epr bx. cbn [handle fst remote]. split; [reflexivity|]. split; [apply t_get_del_same|].
  intros k H. now apply t_get_del_other.
Qed.
Print Assumptions C14_bye_clears.

(* "since its last Bye" read literally: the first announcement after a Bye is recorded as it is, from any state
   (any recorded version), after any Bye, with any (e.g. restarted, lower) metadata version *)
Theorem C14_announcement_after_bye : forall fixed split allow d bx a iid s, s_epr s <> []%list ->
  eff_iid allow a = Some iid ->          (* acted on: AppSequence with any InstanceId, or none and the option on (then 0) *)
  t_get (s_epr s) (remote (handle_all match_consts fixed split allow d [MBye (s_epr s) bx; MHello a s]))
    = Some (with_iid iid s) /\
  t_get (s_epr s) (remote (handle_all match_consts fixed split allow d [MBye (s_epr s) bx; MResolveMatches a (Some s)]))
    = Some (with_iid iid s) /\
  t_get (s_epr s) (remote (handle_all match_consts fixed split allow d [MBye (s_epr s) bx; MProbeMatches a [s]]))
    = Some (with_iid iid s).
Proof.
  intros fixed split allow d bx a iid s H E.
  pose proof (add_after_del (remote d) (with_iid iid s) H) as A. cbn [with_iid s_epr] in A.
  repeat split; cbn [handle_all handle]; rewrite E; cbn [fst remote probe_matches]; exact A.
Qed.
Print Assumptions C14_announcement_after_bye.

(* what makes an announcement acted on.  An AppSequence with ANY InstanceId (0 is a legal xs:unsignedInt) is acted on,
   with the module option allow_missing_app_sequence on or off: Hello and ResolveMatch are entered into the table (version
   arbitration of add_remote), every ProbeMatch likewise *)
Theorem C14_announcement_with_appseq : forall fixed split allow d iid s ms,
  handle match_consts fixed split allow d (MHello (Some iid) s) =
    (mkD (add_remote (remote d) (with_iid iid s)) (local d), match s_xaddrs s with [] => [OResolve (s_epr s)] | _ => [] end) /\
  handle match_consts fixed split allow d (MResolveMatches (Some iid) (Some s)) =
    (mkD (add_remote (remote d) (with_iid iid s)) (local d), []) /\
  remote (fst (handle match_consts fixed split allow d (MProbeMatches (Some iid) ms))) =
    fold_left apply_tev (map (fun s => TAnn (with_iid iid s)) ms) (remote d).
Proof.
  intros fixed split allow d iid s ms. repeat split.
  exact (proj1 (handle_remote match_consts fixed split allow d (MProbeMatches (Some iid) ms))).
Qed.
Print Assumptions C14_announcement_with_appseq.

(* without AppSequence an announcement is ignored when the option is off and handled exactly like InstanceId 0 when on *)
Theorem C14_announcement_without_appseq : forall fixed split d,
  (forall s, handle match_consts fixed split false d (MHello None s) = (d, [])) /\
  (forall ms, handle match_consts fixed split false d (MProbeMatches None ms) = (d, [])) /\
  (forall m, handle match_consts fixed split false d (MResolveMatches None m) = (d, [])) /\
  (forall s, handle match_consts fixed split true d (MHello None s) = handle match_consts fixed split true d (MHello (Some 0%Z) s)) /\
  (forall ms, handle match_consts fixed split true d (MProbeMatches None ms) =
              handle match_consts fixed split true d (MProbeMatches (Some 0%Z) ms)) /\
  (forall m, handle match_consts fixed split true d (MResolveMatches None m) =
             handle match_consts fixed split true d (MResolveMatches (Some 0%Z) m)).
Proof. intros. repeat split; reflexivity. Qed.
Print Assumptions C14_announcement_without_appseq.

(* the empty endpoint reference is never recorded *)
Theorem C14_no_empty_epr : forall rh, t_get [] (table_of rh) = None.
Proof.
  induction rh as [|[s|e] r IH]; simpl; auto.
  - destruct (s_epr s) eqn:E; [unfold add_remote; now rewrite E|].
    rewrite add_remote_other; [exact IH|now rewrite E].
  - destruct e as [|c x]; [apply t_get_del_same|now rewrite t_get_del_other].
Qed.
Print Assumptions C14_no_empty_epr.

(* an id that was acted on is not acted on again while it is among the remembered ids, i.e. as long as
   fewer than cap further ids were registered (the bound is part of the claim) *)
Theorem C14_dedup : forall k id es,
  is_known k id = false ->
  no_restart es = true ->                   (* stop() + start() creates a new NetworkingThread with an empty memory *)
  (count_inserts known_ids_cap (remember known_ids_cap k id) es < known_ids_cap)%nat ->
  dstep known_ids_cap k (EvIn id) = (remember known_ids_cap k id, true) /\
  snd (dstep known_ids_cap (fst (drun known_ids_cap (remember known_ids_cap k id) es)) (EvIn id)) = false.
Proof.
  intros k id es K Hnr H. split; [cbn [dstep]; now rewrite K|].
  now apply own_id_ignored.
Qed.
Print Assumptions C14_dedup.

(* in the node model a datagram with a remembered id changes nothing and sends nothing *)
Theorem C14_known_id_not_acted : forall fixed split allow cap n mid m,
  is_known (kn_ids n) mid = true -> deliver match_consts fixed split allow cap n mid m = (n, []).
Proof. intros fixed split allow cap n mid m H. unfold deliver. now rewrite H. Qed.
Print Assumptions C14_known_id_not_acted.

(* "x://Host/a%2Fb/" against "X://host/a%2fb//c?q#f": well-formed, matched; and a table history *)
Example C14_nonvacuous :
  let u1 := mkUri [120]%N (Some [72; 111; 115; 116]%N) [[]; [97; 37; 50; 70; 98]; []]%N None None in
  let u2 := mkUri [88]%N (Some [104; 111; 115; 116]%N) [[]; [97; 37; 50; 102; 98]; []; [99]]%N (Some [113]%N) (Some [102]%N) in
  wf_uri u1 = true /\ wf_uri u2 = true /\
  match_scope match_consts false (urlsplit false) None (render u1) (render u2) = Ret true /\
  match_scope match_consts false (urlsplit false) None (render u2) (render u1) = Ret false /\
  (let s v := mkService [114]%N [] None [] v 1 in
   map (fun kv => s_mdv (snd kv))
       (remote (handle_all match_consts false (urlsplit false) false (mkD [] [])
                  [MHello (Some 0%Z) (s 2%Z); MHello (Some 1%Z) (s 1%Z); MBye [114]%N (mkBx None (Some 1%Z) [] (Some [[120]%N]) [[121]%N]); MResolveMatches (Some 1%Z) (Some (s 1%Z));
                   MProbeMatches (Some 1%Z) [s 3%Z; s 2%Z]])) = [3%Z]).
Proof. vm_compute. repeat split; reflexivity. Qed.
