(* C02 -- MDIB version counters are monotonic, gap-free and referentially consistent.
   Property theorems only (model: Mdib/Model.v, proofs: Mdib/Proofs.v, Proofs_Ctx.v, Proofs_Descr.v). *)
From Coq Require Import List ZArith.
From SDC Require Import Mdib.Model Mdib.Proofs Mdib.Proofs_Ctx Mdib.Proofs_Descr.
Import ListNotations.
Open Scope Z_scope.

(* Every transaction of every kind (state, context, descriptor; any sequence of API calls, rejected or
   not; aborted by the application at any point or not): if it is not committed the MDIB is exactly
   what it was, if it is committed MdibVersion grew by exactly one -- or the transaction was empty and
   the MDIB is exactly what it was. *)
Theorem C02_version_step : forall k ab acts m,
  let m' := fst (transaction k ab acts m) in
  let c := snd (transaction k ab acts m) in
  (c <> 0 -> m' = m) /\ (c = 0 -> ver m' = ver m + 1 \/ m' = m).
Proof. exact version_step. Qed.
Print Assumptions C02_version_step.

(* over any history of transactions of any kind MdibVersion never decreases and has no gaps *)
Theorem C02_history_version : forall hist m,
  ver m <= ver (exec m hist) <= ver m + Z.of_nat (length hist).
Proof. exact any_history_version. Qed.
Print Assumptions C02_history_version.

(* histories of state transactions (metric, alert, component, operational, real-time sample; classic
   and entity interface; with rejected calls and aborts): the version of every state - or, while a
   handle is absent, the version remembered for it - never decreases; every state keeps referring to an
   existing descriptor and carries its DescriptorVersion; descriptors and context states are untouched *)
Theorem C02_state_history : forall hist m, Forall state_txn hist ->
  (forall h, ev_s m h <= ev_s (exec m hist) h) /\
  (states_consistent m -> states_consistent (exec m hist)) /\
  descrs (exec m hist) = descrs m /\ cstates (exec m hist) = cstates m /\
  ver m <= ver (exec m hist) <= ver m + Z.of_nat (length hist).
Proof. exact state_history. Qed.
Print Assumptions C02_state_history.

(* a state whose published content changed in a state transaction has StateVersion + 1; states the
   transaction did not name are untouched *)
Theorem C02_state_tx_strict : forall k m acts, 0 <= k < 5 -> state_only acts ->
  let m' := fst (transaction k None acts m) in
  (forall h s s', states m h = Some s -> states m' h = Some s' -> s' <> s -> s_ver s' = s_ver s + 1) /\
  (forall h, (forall p, ~ In (AState h p) acts) -> states m' h = states m h).
Proof.
  exact (fun k m acts Hk Ho =>
           conj (proj2 (state_tx_versions k m acts Hk Ho))
                (proj2 (proj2 (state_tx_frame k m acts Hk Ho)))).
Qed.
Print Assumptions C02_state_tx_strict.

(* context transactions (mk_context_state with explicit or generated handle, get_context_state, disassociate_all,
   deletion through the entity interface - any sequence of calls, rejected ones abandon the transaction): the
   version of every context state handle - or the version remembered for it while absent, so also across delete
   and re-create - never decreases; a changed context state has StateVersion + 1; descriptors and single states
   are untouched; every context state keeps referring to an existing context descriptor and carries its
   DescriptorVersion *)
Theorem C02_context_tx : forall m acts, ctx_only acts -> fresh_ok m acts ->
  let m' := fst (transaction 5 None acts m) in
  ((forall h, ev_c m h <= ev_c m' h) /\
   (forall h c c', cstates m h = Some c -> cstates m' h = Some c' -> c' <> c -> c_ver c' = c_ver c + 1) /\
   descrs m' = descrs m /\ states m' = states m) /\
  (cstates_consistent m -> cstates_consistent m').
Proof. exact (fun m acts Ho Hf => conj (ctx_tx_versions m acts Ho Hf) (ctx_tx_consistent m acts Ho Hf)). Qed.
Print Assumptions C02_context_tx.

Example C02_nonvacuous :
  let m := mkMdib (fun h => if Z.eqb h 7 then Some (mkDescr None K_METRIC 2 1) else None)
                  (fun h => if Z.eqb h 7 then Some (mkState 2 5 1) else None)
                  (fun _ => None) 10 (fun _ => None) (fun _ => None) (fun _ => None) [7] [] in
  let m' := exec m [(K_METRIC, None, [AState 7 42]); (K_METRIC, Some 1%nat, [AState 7 43]); (K_ALERT, None, [AState 7 44])] in
  ver m' = 11 /\ states m' 7 = Some (mkState 2 6 42) /\ Forall state_txn [(K_METRIC, @None nat, [AState 7 42])].
Proof.
  cbv zeta. split; [vm_compute; reflexivity|]. split; [vm_compute; reflexivity|].
  constructor; [|constructor]. split; [unfold K_METRIC; split; [apply Z.le_refl|reflexivity]|].
  intros a [<-|[]]. now exists 7, 42.
Qed.

(* Side conditions (Mdib/Proofs_Descr.v):
     mdib_wf m        ddom / cdom list every descriptor / context state, no single state without descriptor,
                      context descriptors have no single state (a property of the MDIB, preserved by every transaction:
                      C02_history_all needs it for the initial MDIB only);
     descr_only acts  only add_descriptor / get_descriptor / remove_descriptor / get_state calls (and their entity twins).
     tree_ok m        every non-root descriptor has an existing parent (needed for the (re-)creation clause only; a property
                      of the MDIB as well, preserved by every transaction: C02_descr_tx_tree, C02_history_all).
   No condition relates the calls of one transaction to each other: a transaction that creates or updates a descriptor
   inside a subtree it removes, or creates one below a parent that neither exists nor is created with it, is refused
   (C02_descr_conflict_rejected, C02_descr_orphan_rejected); every other combination - several children of one parent,
   parent and child, nested removals, any order - is covered by the theorems. *)

(* a transaction that creates / updates a descriptor (or adds a child) inside a subtree it removes: ApiUsageError,
   the MDIB is exactly what it was *)
Theorem C02_descr_conflict_rejected : forall m acts t,
  body 6 m empty_tx acts = Ok t -> subtree_conflict m t = true -> transaction 6 None acts m = (m, 3).
Proof. exact conflict_rejected. Qed.
Print Assumptions C02_descr_conflict_rejected.

(* a transaction that creates a descriptor whose parent neither exists nor is created by the same transaction: ApiUsageError,
   the MDIB is exactly what it was *)
Theorem C02_descr_orphan_rejected : forall m acts t,
  body 6 m empty_tx acts = Ok t -> orphan_create m t = true -> transaction 6 None acts m = (m, 3).
Proof. exact orphan_rejected. Qed.
Print Assumptions C02_descr_orphan_rejected.

(* 1. a descriptor that exists before and after a committed descriptor transaction has its version unchanged or + 1;
   + 1 exactly when it is updated by a call or is the parent of an added / removed descriptor - once, however many
   children are added and removed (its parent, kind and, if only bumped, its content are kept); otherwise it is untouched.
   (A parent that is itself removed does not exist afterwards: C02_descr_tx_survivor.) *)
Theorem C02_descr_tx_versions : forall m acts, mdib_wf m -> descr_only acts ->
  snd (transaction 6 None acts m) = 0 ->
  forall h d0 d', descrs m h = Some d0 -> descrs (fst (transaction 6 None acts m)) h = Some d' ->
    (touched m acts h /\ d_ver d' = d_ver d0 + 1 /\ d_parent d' = d_parent d0 /\ d_kind d' = d_kind d0 /\
     ((forall p, ~ In (ADUpd h p) acts) -> d_pay d' = d_pay d0)) \/
    (~ touched m acts h /\ d' = d0).
Proof. exact descr_tx_versions. Qed.
Print Assumptions C02_descr_tx_versions.

Theorem C02_descr_tx_survivor : forall m acts, mdib_wf m -> descr_only acts ->
  snd (transaction 6 None acts m) = 0 ->
  forall h D, In (ADDel D) acts -> In h (subtree m D) -> descrs (fst (transaction 6 None acts m)) h = None.
Proof. exact descr_tx_survivor. Qed.
Print Assumptions C02_descr_tx_survivor.

(* frame: a handle that no call names, that is not the parent of an added / removed descriptor and is not below a removed
   one keeps its descriptor (or stays absent) and its state, committed or not *)
Theorem C02_descr_tx_frame : forall m acts, mdib_wf m -> descr_only acts ->
  forall h, ~ named acts h -> ~ touched m acts h -> (forall D, In (ADDel D) acts -> ~ below m h D) ->
    descrs (fst (transaction 6 None acts m)) h = descrs m h /\ states (fst (transaction 6 None acts m)) h = states m h.
Proof. exact descr_tx_frame. Qed.
Print Assumptions C02_descr_tx_frame.

(* 2. every state keeps referring to an existing descriptor and carries its DescriptorVersion - also the states of updated
   descriptors, of bumped parents and of created descriptors *)
Theorem C02_descr_tx_consistent : forall m acts, mdib_wf m -> descr_only acts ->
  states_consistent m -> states_consistent (fst (transaction 6 None acts m)).
Proof. exact descr_tx_consistent. Qed.
Print Assumptions C02_descr_tx_consistent.

(* a StateVersion moves by at most one; a descriptor that got a new version (updated or bumped) takes its state along:
   new StateVersion, new DescriptorVersion *)
Theorem C02_descr_tx_states : forall m acts, mdib_wf m -> descr_only acts ->
  (forall h o s', states m h = Some o -> states (fst (transaction 6 None acts m)) h = Some s' ->
     s' = o \/ s_ver s' = s_ver o + 1) /\
  (states_consistent m -> forall h d0 d' o, descrs m h = Some d0 -> descrs (fst (transaction 6 None acts m)) h = Some d' ->
     d_ver d' <> d_ver d0 -> states m h = Some o ->
     exists s', states (fst (transaction 6 None acts m)) h = Some s' /\ s_ver s' = s_ver o + 1 /\ s_dver s' = d_ver d').
Proof. exact descr_tx_states. Qed.
Print Assumptions C02_descr_tx_states.

(* 3a. removal: the whole subtree is gone with its states and context states; the last versions are remembered per handle
   (also when a descendant is removed by a call of its own in the same transaction, in either order) *)
Theorem C02_descr_tx_deleted : forall m acts, mdib_wf m -> descr_only acts ->
  snd (transaction 6 None acts m) = 0 ->
  forall D x, In (ADDel D) acts -> In x (subtree m D) ->
    descrs (fst (transaction 6 None acts m)) x = None /\ states (fst (transaction 6 None acts m)) x = None /\
    (forall d0, descrs m x = Some d0 -> sv_d (fst (transaction 6 None acts m)) x = Some (d_ver d0)) /\
    (forall s, states m x = Some s -> sv_s (fst (transaction 6 None acts m)) x = Some (s_ver s)) /\
    (forall ch c, cstates m ch = Some c -> c_dh c = x ->
       cstates (fst (transaction 6 None acts m)) ch = None /\ sv_c (fst (transaction 6 None acts m)) ch = Some (c_ver c)).
Proof. exact descr_tx_deleted. Qed.
Print Assumptions C02_descr_tx_deleted.

(* [subtree m D] is the real subtree: x is in it iff x has a descriptor and D is reachable from x over parent links *)
Theorem C02_subtree_exact : forall m, mdib_wf m -> forall D x,
  In x (subtree m D) <-> descrs m x <> None /\ below m x D.
Proof. exact subtree_exact. Qed.
Print Assumptions C02_subtree_exact.

(* 3b. (re-)creation: the added descriptor starts at 0 or continues from the remembered version + 1
   ([set_version sv h 0] = saved + 1 if a version is remembered for h, else 0); its state carries that DescriptorVersion
   and continues its own counter the same way *)
Theorem C02_descr_tx_created : forall m acts, mdib_wf m -> descr_only acts -> tree_ok m ->
  snd (transaction 6 None acts m) = 0 ->
  forall h par k p sp, In (ADAdd h par k p sp) acts ->
    descrs m h = None /\
    descrs (fst (transaction 6 None acts m)) h = Some (mkDescr par k (set_version (sv_d m) h 0) p) /\
    (k <> K_CTX -> exists s, states (fst (transaction 6 None acts m)) h = Some s /\
                             s_dver s = set_version (sv_d m) h 0 /\ s_ver s = set_version (sv_s m) h 0).
Proof. exact descr_tx_created. Qed.
Print Assumptions C02_descr_tx_created.

(* every non-root descriptor has an existing parent - also after removals of whole subtrees (all descendants go along) and
   after additions (the parent exists or is added in the same transaction, otherwise the transaction is refused) *)
Theorem C02_descr_tx_tree : forall m acts, mdib_wf m -> descr_only acts ->
  tree_ok m -> tree_ok (fst (transaction 6 None acts m)).
Proof. exact descr_tx_tree. Qed.
Print Assumptions C02_descr_tx_tree.

(* 4. histories of transactions of ALL kinds (state, context, descriptor with ANY descriptor calls; aborted ones arbitrary;
   [hist_ok] only says that the calls fit the kind of transaction and that uuid4 handles are fresh): well-formedness and
   state <-> descriptor consistency and "every non-root descriptor has an existing parent" are preserved (needed for the
   initial MDIB only), the version of every descriptor handle - present or remembered, so also across delete and
   re-create - never decreases *)
Theorem C02_history_all : forall hist m, mdib_wf m -> hist_ok m hist ->
  mdib_wf (exec m hist) /\
  (states_consistent m -> states_consistent (exec m hist)) /\
  (tree_ok m -> tree_ok (exec m hist)) /\
  (forall h, ev_d m h <= ev_d (exec m hist) h) /\
  (forall h d d', descrs m h = Some d -> descrs (exec m hist) h = Some d' -> d_ver d <= d_ver d').
Proof. exact all_history. Qed.
Print Assumptions C02_history_all.

(* transactions on 1 <- 2 <- 3 that would leave states without a descriptor (or raise in the middle of the commit) are
   refused; a removal nested in another removal commits to a consistent MDIB *)
Example C02_descr_add_below_removed_rejected : rejected [ADAdd 4 (Some 2) K_METRIC 40 41; ADDel 2].
Proof. exact add_below_removed_rejected. Qed.
Example C02_descr_update_below_removed_rejected : rejected [ADUpd 3 33; ADDel 2].
Proof. exact update_below_removed_rejected. Qed.
Example C02_descr_update_after_remove_rejected : rejected [ADDel 2; ADUpd 3 33].
Proof. exact update_after_remove_rejected. Qed.
(* adding a descriptor below the missing handle 9 is refused; parent and child in one transaction commit in either order *)
Example C02_descr_orphan_add_rejected : rejected [ADAdd 4 (Some 9) K_METRIC 40 41].
Proof. exact orphan_add_rejected. Qed.
Example C02_descr_parent_and_child_commit :
  snd (transaction 6 None [ADAdd 4 (Some 9) K_METRIC 40 41; ADAdd 9 (Some 1) K_COMP 90 91] w_m) = 0 /\
  snd (transaction 6 None [ADAdd 9 (Some 1) K_COMP 90 91; ADAdd 4 (Some 9) K_METRIC 40 41] w_m) = 0.
Proof. exact parent_and_child_commit. Qed.
Example C02_descr_nested_remove_commits :
  let r := transaction 6 None [ADDel 3; ADDel 1] w_m in
  snd r = 0 /\ ver (fst r) = 1 /\ states_consistent (fst r) /\ mdib_wf (fst r) /\
  map (descrs (fst r)) [1; 2; 3] = [None; None; None] /\ map (states (fst r)) [1; 2; 3] = [None; None; None] /\
  map (sv_d (fst r)) [1; 2; 3] = [Some 0; Some 0; Some 0] /\ map (sv_s (fst r)) [1; 2; 3] = [Some 0; Some 0; Some 0].
Proof. exact nested_remove_commits. Qed.

(* the hypotheses of the descriptor theorems are satisfiable: parent 2 with children 3 and 4, one transaction adds 5
   below 2 (5 has remembered versions 6 / 2), removes 3 and updates 4 *)
Example C02_descr_nonvacuous :
  tree_ok ex_m /\ mdib_wf ex_m /\ states_consistent ex_m /\ descr_only ex_acts /\
  let r := transaction 6 None ex_acts ex_m in
  snd r = 0 /\ ver (fst r) = 11 /\
  map (descrs (fst r)) [1; 2; 3; 4; 5] =
    [Some (mkDescr None K_COMP 0 10); Some (mkDescr (Some 1) K_COMP 4 20); None;
     Some (mkDescr (Some 2) K_METRIC 6 42); Some (mkDescr (Some 2) K_METRIC 7 50)] /\
  map (states (fst r)) [1; 2; 3; 4; 5] =
    [Some (mkState 0 2 11); Some (mkState 4 8 21); None; Some (mkState 6 1 41); Some (mkState 7 3 51)] /\
  sv_d (fst r) 3 = Some 1 /\ sv_s (fst r) 3 = Some 4.
Proof. exact (conj ex_tree descr_tx_nonvacuous). Qed.
