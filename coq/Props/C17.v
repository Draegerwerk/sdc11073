(* C17 -- HTTP body framing and content coding are lossless and honour negotiation.
   The property theorems; they rest on the lemmas of Http/*_Proofs.v and Http/Roundtrip.v.
   The model is the code WITH the proposed repair fixes/C17_q0.diff (parse_header drops q <= 0) and
   fixes/C13_reader_framing.diff (strict chunk sizes, end of data ends the chunk loop); the behaviour
   as found is kept as [parse_header_found] / [dechunk_found] for the two [_as_found] theorems. *)
From Coq Require Import List NArith ZArith Lia.
From SDC Require Import Http.Chunk Http.Chunk_Proofs Http.Negotiation Http.Negotiation_Proofs
     Http.Roundtrip Http.Gen_Params.
Import ListNotations.
Open Scope N_scope.

(* chunk-size lines are read with at most hdr_max bytes including CRLF: sizes below 16^(hdr_max-2) *)
Definition size_limit : N := 16 ^ N.of_nat (hdr_max - 2).

(* the header values "gzip" and "gzip;q=0" *)
Definition gzip : bytes := [103; 122; 105; 112].
Definition gzip_q0 : bytes := gzip ++ [59; 113; 61; 48].

Lemma hdr_max_ge3 : (3 <= hdr_max)%nat.
Proof. unfold hdr_max. lia. Qed.

(* every body, every chunk size >= 1 (bound stated: min(chunk size, body length) < size_limit, which is
   2^56 for hdr_max = 16): the framing produced is a sequence of  1*HEXDIG CRLF data CRLF  chunks with non-empty
   data, closed by the zero chunk and an empty trailer *)
Theorem C17_mk_chunks_wellformed : forall n body,
  1 <= n -> N.min n (lenN body) < size_limit ->
  chunked (hdr_max - 2) (mk_chunks n body) body.
Proof. exact (fun n body Hn Hb => mk_chunks_chunked n body (hdr_max - 2) Hn ltac:(unfold hdr_max; lia) Hb). Qed.
Print Assumptions C17_mk_chunks_wellformed.

(* the reader decodes every strictly well-formed chunked body (not only its own writer's), stops
   exactly behind it and leaves the rest of the stream untouched *)
Theorem C17_reader_accepts_valid_chunking : forall w b rest fuel,
  chunked (hdr_max - 2) w b -> (length w < fuel)%nat ->
  dechunk hdr_max fuel (uncapped (w ++ rest)) = DOk b (uncapped rest).
Proof. exact (fun w b rest fuel H => dechunk_complete hdr_max w b H rest fuel). Qed.
Print Assumptions C17_reader_accepts_valid_chunking.

Theorem C17_dechunk_mk_chunks : forall n body rest,
  1 <= n -> N.min n (lenN body) < size_limit ->
  let s := uncapped (mk_chunks n body ++ rest) in
  dechunk hdr_max (fuel_for s) s = DOk body (uncapped rest).
Proof. exact (fun n body rest => dechunk_mk_chunks hdr_max n body rest hdr_max_ge3). Qed.
Print Assumptions C17_dechunk_mk_chunks.

(* whatever the reader returns was framed as a chunked body: nothing is invented, nothing beyond
   the message is consumed *)
Theorem C17_dechunk_sound : forall fuel s b s',
  dechunk hdr_max fuel s = DOk b s' -> exists w, sdata s = w ++ sdata s' /\ chunked_any w b.
Proof. intros fuel s b s' E. pose proof (dechunk_spec hdr_max fuel s) as S. rewrite E in S. exact S. Qed.
Print Assumptions C17_dechunk_sound.

(* request path and response path, every registered coding or none, chunked or Content-Length.
   Premises (Section hypotheses of Http/Roundtrip.v, validated differentially by the harness):
   decompress c (compress c b) = b for the available codings; http.client decodes strictly
   well-formed chunked bodies. *)
Theorem C17_request_roundtrip :
  forall (compress decompress : bytes -> bytes -> option bytes),
  (forall c b, In c available_encodings -> exists z, compress c b = Some z /\ decompress c z = Some b) ->
  forall coding chunk xml h wire,
  chunk < size_limit -> coding_ok available_encodings coding ->
  encode compress coding chunk xml = Some (h, wire) ->
  decode_request hdr_max available_encodings decompress h wire = Some xml.
Proof.
  exact (request_roundtrip hdr_max available_encodings).
Qed.
Print Assumptions C17_request_roundtrip.

Theorem C17_response_roundtrip :
  forall (compress decompress : bytes -> bytes -> option bytes),
  (forall c b, In c available_encodings -> exists z, compress c b = Some z /\ decompress c z = Some b) ->
  forall client_dechunk : bytes -> option bytes,
  (forall w b, chunked (hdr_max - 2) w b -> client_dechunk w = Some b) ->
  forall coding chunk xml h wire,
  chunk < size_limit -> coding_ok available_encodings coding ->
  encode compress coding chunk xml = Some (h, wire) ->
  decode_response available_encodings decompress client_dechunk h wire = Some xml.
Proof.
  exact (response_roundtrip hdr_max available_encodings).
Qed.
Print Assumptions C17_response_roundtrip.

(* negotiation, server side (_compress_if_supported): [items] is the effective quality per coding
   name after the whole header was read *)
Theorem C17_choice_sound : forall header enabled items c,
  parse_items header = Some items ->
  server_choice header enabled = Some (Some c) ->
  In c enabled /\
  exists q, In (c, q) items /\ qpos q = true /\
            forall c' q', In (c', q') items -> qpos q' = true -> In c' enabled -> (zkey q' <= zkey q)%Z.
Proof. exact server_choice_sound. Qed.
Print Assumptions C17_choice_sound.

Theorem C17_choice_none : forall header enabled items,
  parse_items header = Some items ->
  server_choice header enabled = Some None ->
  forall c q, In (c, q) items -> qpos q = true -> ~ In c enabled.
Proof.
  intros header enabled items Hi H c q Hin Hp. rewrite (server_choice_items _ _ _ Hi) in H. injection H as H.
  apply (choose_none _ _ H), accepted_of_In. eauto.
Qed.
Print Assumptions C17_choice_none.

Theorem C17_effective_quality_unique : forall header items,
  parse_items header = Some items -> NoDup (map fst items).
Proof.
  unfold parse_items. intros [[|c h]|] items E; try (injection E as <-; constructor).
  eapply parse_elements_NoDup; [|exact E]. constructor.
Qed.
Print Assumptions C17_effective_quality_unique.

(* client side (_send_soap_request): request_encodings is parse_header of the peer's Accept-Encoding *)
Theorem C17_client_choice_sound : forall header items supported c,
  parse_items header = Some items ->
  client_choice (accepted_of items) supported = Some c ->
  In c supported /\ exists q, In (c, q) items /\ qpos q = true.
Proof.
  intros header items supported c _ H. apply choose_sound in H as [H1 H2]. split; [assumption|].
  now apply accepted_of_In.
Qed.
Print Assumptions C17_client_choice_sound.

(* keep-alive: the coding of the i-th response on a connection is the choice for the i-th request's own
   header, whatever was negotiated for the requests before it (so C17_choice_sound applies to every
   response); a handler that caches the first evaluation for the connection is refuted *)
Theorem C17_choice_per_request : forall enabled before h after,
  nth_error (conn_choices enabled (before ++ h :: after)) (length before) = Some (server_choice h enabled).
Proof.
  intros enabled before h after. rewrite conn_choices_nth, nth_error_app2 by apply le_n.
  now rewrite PeanoNat.Nat.sub_diag.
Qed.
Print Assumptions C17_choice_per_request.

Theorem C17_cached_choice_refuted :
  exists enabled h1 h2 c items q,
    nth_error (conn_choices_cached enabled [h1; h2]) 1 = Some (Some (Some c)) /\
    parse_items h2 = Some items /\ In (c, q) items /\ qpos q = false.
Proof.
  exists [gzip], (Some gzip), (Some gzip_q0), gzip, [(gzip, QVal false 0)], (QVal false 0).
  vm_compute. repeat split; auto.
Qed.
Print Assumptions C17_cached_choice_refuted.

(* unsupported codings are rejected whatever the framing; a coded body is never returned raw *)
Theorem C17_unsupported_rejected : forall fuel h s enc,
  h_ce h = Some enc -> ~ In enc available_encodings ->
  match read_request_body hdr_max available_encodings fuel h s with
  | RBody _ _ | RDecode _ _ _ => False
  | _ => True
  end.
Proof.
  intros fuel h s enc He Hn. pose proof (request_body_coded hdr_max available_encodings fuel h s enc He) as C.
  destruct (read_request_body hdr_max available_encodings fuel h s); tauto.
Qed.
Print Assumptions C17_unsupported_rejected.

Theorem C17_unsupported_rejected_response : forall h s enc,
  h_ce h = Some enc -> ~ In enc available_encodings ->
  match read_response_body available_encodings h s with
  | RBody _ _ | RDecode _ _ _ => False
  | _ => True
  end.
Proof.
  intros h s enc He Hn. pose proof (response_body_coded available_encodings h s enc He) as C.
  destruct (read_response_body available_encodings h s); tauto.
Qed.
Print Assumptions C17_unsupported_rejected_response.

Theorem C17_coded_never_raw :
  forall (decompress : bytes -> bytes -> option bytes) h wire enc,
  h_ce h = Some enc ->
  forall b, decode_request hdr_max available_encodings decompress h wire = Some b ->
  exists z, decompress enc z = Some b.
Proof. exact (coded_never_raw hdr_max available_encodings). Qed.
Print Assumptions C17_coded_never_raw.

(* the pinned source offers a coding that the peer excluded: "gzip;q=0" with gzip enabled *)
Theorem C17_choice_refuted_as_found :
  exists header enabled c items q,
    parse_items header = Some items /\
    server_choice_found header enabled = Some (Some c) /\
    In (c, q) items /\ qpos q = false.
Proof.
  exists (Some gzip_q0), [gzip], gzip, [(gzip, QVal false 0)], (QVal false 0).
  vm_compute. repeat split; auto.
Qed.
Print Assumptions C17_choice_refuted_as_found.

Example C17_q0_repaired :
  server_choice (Some [103; 122; 105; 112; 59; 113; 61; 48]) [[103; 122; 105; 112]] = Some None.
Proof. vm_compute. reflexivity. Qed.

(* a non-trivial instance: 7 bytes in chunks of 3, trailing bytes of a pipelined request untouched;
   "x, lz4;q=0.3, gzip;q=0.2" with both enabled picks lz4 *)
Example C17_nonvacuous :
  mk_chunks 3 [97; 98; 99; 100; 101; 102; 103] =
    [51; 13; 10; 97; 98; 99; 13; 10; 51; 13; 10; 100; 101; 102; 13; 10; 49; 13; 10; 103; 13; 10; 48; 13; 10; 13; 10] /\
  (let s := uncapped (mk_chunks 3 [97; 98; 99; 100; 101; 102; 103] ++ [80; 79]) in
   dechunk hdr_max (fuel_for s) s = DOk [97; 98; 99; 100; 101; 102; 103] (uncapped [80; 79])) /\
  server_choice (Some [120; 44; 32; 108; 122; 52; 59; 113; 61; 48; 46; 51; 44; 32; 103; 122; 105; 112; 59; 113; 61; 48; 46; 50])
                [[103; 122; 105; 112]; [108; 122; 52]] = Some (Some [108; 122; 52]).
Proof. vm_compute. repeat split. Qed.
