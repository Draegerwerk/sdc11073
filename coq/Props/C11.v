(* C11 -- Every MDIB lookup always agrees with a scan of the stored objects.
   Property theorems only. *)
From Coq Require Import List ZArith.
From SDC Require Import Multikey.Model Multikey.Proofs Multikey.Gen_Tables.
Import ListNotations.
Open Scope Z_scope.

(* after ANY sequence of add / remove / update(re-index) / clear / attribute changes / rejected
   operations -- single-object and BULK (AddMany / RemoveMany / UpdateMany, arbitrary batches: the same
   object twice, stored objects, duplicate unique keys at any position, empty) --, starting from the empty
   table, the table invariant holds ... *)
Theorem C11_invariant_reachable : forall kinds ops, Inv kinds (fst (run kinds empty ops)).
Proof. exact (fun kinds ops => run_inv kinds ops empty (empty_inv kinds)). Qed.
Print Assumptions C11_invariant_reachable.

(* ... hence every lookup (any index, any key) lists every object exactly as often as a linear scan
   of the stored objects would, with the attribute values seen at the last (re-)indexing ... *)
Theorem C11_lookup_is_scan : forall kinds ops i k o,
  let t := fst (run kinds empty ops) in
  (i < length kinds)%nat ->
  count_occ Z.eq_dec (lookup t i k) o = scan_mult kinds t (iattrs t) i k o.
Proof. exact (fun kinds ops i k o => lookup_is_scan kinds _ i k o (C11_invariant_reachable kinds ops)). Qed.
Print Assumptions C11_lookup_is_scan.

(* ... and with the CURRENT attribute values whenever every changed object has been re-indexed. *)
Theorem C11_lookup_is_scan_current : forall kinds ops i k o,
  let t := fst (run kinds empty ops) in
  reindexed t -> (i < length kinds)%nat ->
  count_occ Z.eq_dec (lookup t i k) o = scan_mult kinds t (attrs t) i k o.
Proof.
  exact (fun kinds ops i k o => lookup_is_scan_current kinds _ i k o (C11_invariant_reachable kinds ops)).
Qed.
Print Assumptions C11_lookup_is_scan_current.

(* An insertion that is rejected (duplicate unique key, list key in a unique index) leaves the
   object set and the reference lists exactly as they were, and every index entry with the same objects
   in the same multiplicities (same_table does not speak of the order inside an entry). *)
Theorem C11_rejected_insert_noop : forall kinds ops o t',
  let t := fst (run kinds empty ops) in
  add kinds t o = (t', RRejected) -> same_table t' t.
Proof.
  exact (fun kinds ops o t' => rejected_insert_noop kinds _ o t' (C11_invariant_reachable kinds ops)).
Qed.
Print Assumptions C11_rejected_insert_noop.

(* The BULK entry points (add_objects / add_objects_no_lock, in every table class) are loops over the
   single insertion and stop at the first rejected element.  What the code does for a rejected batch is
   PREFIX semantics, not all-or-nothing: the table is (in the sense of same_table) the table after the
   accepted insertion of the elements before the offending one; the offending element (rolled back) and all
   elements behind it left no trace in the object set, in any index or in the reference lists. *)
Theorem C11_rejected_batch_is_prefix : forall kinds ops os t',
  let t := fst (run kinds empty ops) in
  add_many kinds t os = (t', RRejected) ->
  exists pre o post t1,
    os = pre ++ o :: post /\ add_many kinds t pre = (t1, ROk) /\
    (exists t1', add kinds t1 o = (t1', RRejected)) /\ same_table t' t1.
Proof.
  exact (fun kinds ops os t' => rejected_batch_is_prefix kinds os _ t' (C11_invariant_reachable kinds ops)).
Qed.
Print Assumptions C11_rejected_batch_is_prefix.

(* non-vacuity: a history on the real descriptor table's index set with a rejected insert *)
Example C11_nonvacuous :
  let ops := [SetAttr 1 0%nat (VOne 7); SetAttr 1 1%nat (VOne 3); SetAttr 2 0%nat (VOne 7);
              SetAttr 2 1%nat (VOne 3); Add 1; Add 2] in
  snd (run descriptors_kinds empty ops) = [ROk; ROk; ROk; ROk; ROk; RRejected] /\
  lookup (fst (run descriptors_kinds empty ops)) 1 (Some 3) = [1] /\
  objs (fst (run descriptors_kinds empty ops)) = [1].
Proof. vm_compute. repeat split. Qed.

(* non-vacuity of the batch theorem: object 2 duplicates the unique handle of object 1 in the middle of
   a batch; 1 stays (prefix), 2 is rolled back, 3 is never looked at *)
Example C11_batch_nonvacuous :
  let ops := [SetAttr 1 0%nat (VOne 7); SetAttr 2 0%nat (VOne 7); SetAttr 3 0%nat (VOne 8)] in
  let t := fst (run descriptors_kinds empty ops) in
  snd (add_many descriptors_kinds t [1; 2; 3]) = RRejected /\
  objs (fst (add_many descriptors_kinds t [1; 2; 3])) = [1] /\
  lookup (fst (add_many descriptors_kinds t [1; 2; 3])) 0 (Some 7) = [1] /\
  lookup (fst (add_many descriptors_kinds t [1; 2; 3])) 0 (Some 8) = [].
Proof. vm_compute. repeat split. Qed.
