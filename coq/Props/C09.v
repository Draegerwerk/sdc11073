(* C09 -- Operation invocations follow the BICEPS invocation-state protocol end to end.
   Property theorems only: those that speak of every run are lemmas of Invocation/Proofs.v, or follow from
   them in a few lines, instantiated with the constants read from the source on every run
   (Invocation/Gen_Consts.v: SCO queue length, report-part buffer length, the state answered by
   direct processing, the consumer's state classes, "transaction id under a lock"); the [_refuted]
   witnesses and the non-vacuity example are closed by evaluation. *)
From Coq Require Import List ZArith Lia Sorted.
From SDC Require Import Invocation.Model Invocation.Proofs Invocation.Gen_Consts Invocation.Inst.
Import ListNotations.
Open Scope Z_scope.

(* the constants found in the source today satisfy what the theorems below need: direct processing
   answers the state the handler returned (Fail when it raised), the consumer's "non final" states are
   exactly Wait and Start, the response states that complete a call at once are final states, such a
   completion keeps the report parts received so far, the id counter is incremented under its lock,
   every access of the consumer's manager to its buffer and its table of pending transactions happens
   with _transactions_lock held (so that one model step is one critical section and a concurrent
   execution is the sequence of its critical sections), both bounds are positive *)
Theorem C09_gen_consts_ok : gen_ok = true.
Proof. vm_compute. reflexivity. Qed.
Print Assumptions C09_gen_consts_ok.

Lemma dresp_gen_ok st : final st = true -> dresp_gen st = st.
Proof. destruct st; intros H; try discriminate H; vm_compute; reflexivity. Qed.
Lemma rresp_gen_ok : direct_raise_resp = Fail.
Proof. vm_compute. reflexivity. Qed.
Lemma nonfinal_gen_ok st : nonfinal_gen st = negb (final st).
Proof. destruct st; vm_compute; reflexivity. Qed.
Lemma completing_gen_final st : completing_gen st = true -> final st = true.
Proof. destruct st; vm_compute; intros H; try reflexivity; discriminate H. Qed.
Lemma lostwait_gen_ok : sco_full_queue_loses_wait = false.
Proof. vm_compute. reflexivity. Qed.
Lemma keeps_gen_ok : consumer_keeps_early_parts = true.
Proof. vm_compute. reflexivity. Qed.

(* transaction ids: for every sequence of requests, worker steps and handler completions, from every
   state, the ids given to the requests (in the order the requests are handled) are the next numbers
   without gap -- hence unique and strictly increasing.  Concurrent requests: the increment is one
   atomic step because it happens under _transaction_id_lock (txid_under_lock, part of gen_ok). *)
Theorem C09_ids_increasing : forall es s,
  let ids := resp_ids (snd (prun_gen s es)) in
  ids = zseq (p_next s + 1) (count_reqs es) /\ StronglySorted Z.lt ids /\ NoDup ids.
Proof.
  intros es s ids. unfold ids, prun_gen. rewrite lostwait_gen_ok.
  rewrite (proj1 (prun_ids sco_queue_cap dresp_gen direct_raise_resp es s)).
  split; [reflexivity|]. split; [apply zseq_sorted|apply zseq_nodup].
Qed.
Print Assumptions C09_ids_increasing.

(* the states reported for one transaction.  For every schedule of requests (direct or queued, known
   or unknown operation, handler returning a final state or raising), worker steps and completions:
   every request got exactly one answer; a fault only for a queued operation, and then nothing was
   reported; otherwise response and report states are, at every moment, a prefix of a legal exchange,
   and the complete legal exchange once the worker has come to rest -- which reads "Wait Start final"
   or "final" when an immediately repeated state is counted once. *)
Theorem C09_legal_sequence : forall es n mv,
  reqs_ok es ->
  let s := fst (prun_gen (pinit n mv) es) in
  let o := snd (prun_gen (pinit n mv) es) in
  forall id r, In (id, r) (p_hist s) ->
  exists x, resp_of id o = [x] /\
    match x with
    | None => r_known r = true /\ r_direct r = false /\ parts_of id o = []
    | Some i =>
        let reports := part_states (parts_of id o) in
        i_id i = id /\ tx_legal_prefix (i_st i) reports = true /\
        (quiescent s = true ->
           tx_legal (i_st i) reports = true /\ legal_word (collapse (i_st i :: reports)) = true)
    end.
Proof.
  intros es n mv Hok s o id r H.
  destruct (prov_legal sco_queue_cap dresp_gen direct_raise_resp dresp_gen_ok rresp_gen_ok es n mv Hok id r H)
    as (x & Hx & Hm).
  exists x. split; [exact Hx|]. destruct x as [i|]; [|exact Hm].
  destruct Hm as (H1 & H2 & H3). repeat split; auto. now apply tx_legal_word, H3.
Qed.
Print Assumptions C09_legal_sequence.

(* a request is refused with a fault exactly when it is for a known, queued operation and the worker's
   queue holds sco_queue_cap operations (the bound is part of the claim) *)
Theorem C09_refused_only_when_full : forall s r id,
  In (OResp id None) (snd (pstep_gen s (EvReq r))) <->
  id = p_next s + 1 /\ r_known r = true /\ r_direct r = false /\ (sco_queue_cap <= length (p_queue s))%nat.
Proof. exact (fault_iff sco_queue_cap dresp_gen direct_raise_resp). Qed.
Print Assumptions C09_refused_only_when_full.

(* a handler that raises: every final state reported is Fail with InvocationError Oth and a message;
   direct processing answers Fail and reports exactly that; queued processing has reported it once
   the worker is at rest *)
Theorem C09_raise_is_fail : forall es n mv,
  let s := fst (prun_gen (pinit n mv) es) in
  let o := snd (prun_gen (pinit n mv) es) in
  forall id r, In (id, r) (p_hist s) -> r_known r = true -> r_out r = Raises ->
  (forall p, In p (parts_of id o) -> final (i_st (p_info p)) = true ->
             p_info p = mkInfo id Fail Oth true) /\
  (r_direct r = true ->
     resp_of id o = [Some (mkInfo id Fail ENone false)] /\ part_states (parts_of id o) = [Fail]) /\
  (r_direct r = false -> resp_of id o = [Some (mkInfo id Wait ENone false)] ->
     quiescent s = true ->
     exists p, In p (parts_of id o) /\ p_info p = mkInfo id Fail Oth true).
Proof. exact (prov_raise sco_queue_cap dresp_gen direct_raise_resp rresp_gen_ok). Qed.
Print Assumptions C09_raise_is_fail.

(* a request for an operation that does not exist: the step changes nothing but the id counter (queue,
   worker, MdibVersion, executed handlers untouched) and answers Fail / Inv with a message; and in
   every run nothing is ever reported or executed for that transaction *)
Theorem C09_unknown_noop :
  (forall s r, r_known r = false ->
     pstep_gen s (EvReq r) =
     (mkP (p_next s + 1) (p_queue s) (p_cur s) (p_mv s) (p_execd s) (p_hist s ++ [(p_next s + 1, r)]),
      [OResp (p_next s + 1) (Some (mkInfo (p_next s + 1) Fail Inv true))])) /\
  (forall es n mv,
     let s := fst (prun_gen (pinit n mv) es) in
     let o := snd (prun_gen (pinit n mv) es) in
     forall id r, In (id, r) (p_hist s) -> r_known r = false ->
     resp_of id o = [Some (mkInfo id Fail Inv true)] /\ parts_of id o = [] /\ ~ In id (p_execd s)).
Proof.
  split.
  - exact (unknown_step sco_queue_cap dresp_gen direct_raise_resp).
  - exact (prov_unknown sco_queue_cap dresp_gen direct_raise_resp).
Qed.
Print Assumptions C09_unknown_noop.

(* the worker left alone comes to rest -- one Take/Finish round per outstanding operation -- so the
   "at rest" clause of C09_legal_sequence is reached from every state: after any schedule of requests
   and worker steps followed by sco_queue_cap + 1 rounds, every answered transaction shows its complete
   legal exchange *)
Theorem C09_every_transaction_completes : forall es n mv,
  reqs_ok es ->
  let es' := es ++ drain (S sco_queue_cap) in
  let s := fst (prun_gen (pinit n mv) es') in
  let o := snd (prun_gen (pinit n mv) es') in
  quiescent s = true /\
  forall id r i, In (id, r) (p_hist s) -> resp_of id o = [Some i] ->
    tx_legal (i_st i) (part_states (parts_of id o)) = true.
Proof.
  intros es n mv Hok es' s o.
  assert (Hq : quiescent s = true) by apply (drained_quiescent sco_queue_cap dresp_gen direct_raise_resp es n mv).
  split; [exact Hq|]. intros id r i Hin Hr.
  destruct (C09_legal_sequence es' n mv (reqs_ok_drain es (S sco_queue_cap) Hok) id r Hin) as (x & Hx & Hm).
  fold o in Hx. rewrite Hr in Hx. injection Hx as <-. simpl in Hm. apply Hm. exact Hq.
Qed.
Print Assumptions C09_every_transaction_completes.

(* every Wait is followed by exactly one final state: for arbitrary bursts of requests (more than the
   queue holds, any mix of operations, direct and unknown ones in between) and arbitrary worker
   progress, once the worker has drained, every transaction whose response said Wait has reported
   exactly Wait, Start and one final state.  A request that found the queue full was refused without
   any state (C09_refused_only_when_full) -- it is never answered Wait and then forgotten. *)
Theorem C09_wait_ends_in_one_final : forall es n mv,
  reqs_ok es ->
  let es' := es ++ drain (S sco_queue_cap) in
  let s := fst (prun_gen (pinit n mv) es') in
  let o := snd (prun_gen (pinit n mv) es') in
  forall id r i, In (id, r) (p_hist s) -> resp_of id o = [Some i] -> i_st i = Wait ->
  exists f, final f = true /\ part_states (parts_of id o) = [Wait; Start; f].
Proof.
  intros es n mv Hok es' s o id r i Hin Hr Hw.
  destruct (C09_every_transaction_completes es n mv Hok) as [_ H].
  specialize (H id r i Hin Hr). rewrite Hw in H.
  destruct (tx_legal_inv _ _ H) as [(_ & Hf)|[(Hf & _)|(Hf & _)]]; [exact Hf|discriminate..].
Qed.
Print Assumptions C09_wait_ends_in_one_final.

(* The result handle completes exactly once.  From every manager state in which transaction [id] is
   new, for every event sequence [es] whose events concerning [id] are an interleaving of the response
   with the report parts nf ++ [f] (nf non final, f final; all other events -- responses and parts
   of other transactions, pending or unknown -- are arbitrary), provided at most recent_cap report
   parts (of any transaction) are received before the response:
   - the set_result log of [id] has exactly one entry and [id] is no longer pending;
   - if the response does not complete the call at once, the result carries the final state of f
     and all report parts nf ++ [f], in order;
   - if it does (Fail, Cnclld, CnclldMan -- final states), the result carries the response's state
     and the parts of [id] received before the response. *)
Theorem C09_completes_once : forall id es s0 rst nf f,
  fresh id s0 ->
  Merge [CResp id rst] (map CPart (nf ++ [f])) (filter (mentions id) es) ->
  Forall (fun p => final (cp_st p) = false) nf -> final (cp_st f) = true ->
  (parts_before id es <= recent_cap)%nat ->
  let s' := crun_gen s0 es in
  aget id (c_pend s') = None /\
  done_of id s' =
    [if completing_gen rst
     then mkCR rst rst true (own_parts id (before_resp id es))
     else mkCR (cp_st f) rst false (nf ++ [f])] /\
  (completing_gen rst = true -> final rst = true).
Proof.
  intros id es s0 rst nf f Hfr Hm Hnf Hf Hc s'.
  assert (Hnf' : Forall (fun p => nonfinal_gen (cp_st p) = true) nf).
  { eapply Forall_impl; [|exact Hnf]. intros p Hp. simpl in Hp. rewrite nonfinal_gen_ok, Hp. reflexivity. }
  assert (Hf' : nonfinal_gen (cp_st f) = false) by (rewrite nonfinal_gen_ok, Hf; reflexivity).
  destruct (cons_merge recent_cap consumer_keeps_early_parts completing_gen nonfinal_gen
              id es s0 rst nf f Hfr Hm Hnf' Hf' Hc) as [H1 H2].
  rewrite keeps_gen_ok in H2. split; [exact H1|]. split; [exact H2|]. apply completing_gen_final.
Qed.
Print Assumptions C09_completes_once.

(* a response that completes the call at once (Fail, Cnclld, CnclldMan): whatever is reported for the
   transaction -- nothing at all when the operation does not exist -- the result handle completes at the
   response, exactly once, with the response's state and the parts of [id] received before it *)
Theorem C09_refused_completes_once : forall id pre post s0 rst,
  fresh id s0 -> noresp id pre = true -> noresp id post = true -> completing_gen rst = true ->
  (count_parts pre <= recent_cap)%nat ->
  let s' := crun_gen s0 (pre ++ CResp id rst :: post) in
  aget id (c_pend s') = None /\ done_of id s' = [mkCR rst rst true (own_parts id pre)] /\ final rst = true.
Proof.
  intros id pre post s0 rst Hf Hn1 Hn2 Hc Hb s'.
  destruct (cons_completing recent_cap consumer_keeps_early_parts completing_gen nonfinal_gen
              id pre post s0 rst Hf Hn1 Hn2 Hc Hb) as [H1 H2].
  rewrite keeps_gen_ok in H2. split; [exact H1|]. split; [exact H2|]. now apply completing_gen_final.
Qed.
Print Assumptions C09_refused_completes_once.

(* the bound of the claim is pinned: at most 50 report parts (of any transaction) before the response.
   The buffer length found in the source may be larger, not smaller (part of gen_ok). *)
Lemma recent_cap_pinned : (pinned_recent_cap <= recent_cap)%nat.
Proof. apply Nat.leb_le. vm_compute. reflexivity. Qed.

Theorem C09_completes_once_within_50 : forall id es s0 rst nf f,
  fresh id s0 ->
  Merge [CResp id rst] (map CPart (nf ++ [f])) (filter (mentions id) es) ->
  Forall (fun p => final (cp_st p) = false) nf -> final (cp_st f) = true ->
  (parts_before id es <= 50)%nat ->
  let s' := crun_gen s0 es in
  aget id (c_pend s') = None /\
  done_of id s' =
    [if completing_gen rst
     then mkCR rst rst true (own_parts id (before_resp id es))
     else mkCR (cp_st f) rst false (nf ++ [f])].
Proof.
  intros id es s0 rst nf f Hfr Hm Hnf Hf Hc.
  assert (Hc' : (parts_before id es <= recent_cap)%nat).
  { pose proof recent_cap_pinned as H. unfold pinned_recent_cap in H. lia. }
  destruct (C09_completes_once id es s0 rst nf f Hfr Hm Hnf Hf Hc') as (H1 & H2 & _). auto.
Qed.
Print Assumptions C09_completes_once_within_50.

(* a consumer that is started again begins with an empty manager: every transaction id is new in it, so
   the theorems above apply from [cinit] whatever happened before the restart *)
Theorem C09_restart_is_fresh : forall id, fresh id cinit.
Proof. intros id. repeat split. Qed.
Print Assumptions C09_restart_is_fresh.

Fixpoint foreign (n : nat) (tag : Z) : list cevent :=
  match n with O => [] | S k => CPart (mkCP 7 Fin tag) :: foreign k (tag + 1) end.

(* the bound of C09_completes_once is sharp: one more foreign part before the response and the
   final part is gone -- the call never completes *)
Theorem C09_overflow_refuted :
  exists es,
    Merge [CResp 1 Fin] (map CPart ([] ++ [mkCP 1 Fin 0])) (filter (mentions 1) es) /\
    parts_before 1 es = S recent_cap /\
    done_of 1 (crun_gen cinit es) = [] /\ aget 1 (c_pend (crun_gen cinit es)) <> None.
Proof.
  exists (CPart (mkCP 1 Fin 0) :: foreign recent_cap 100 ++ [CResp 1 Fin]).
  split; [|vm_compute; repeat split; discriminate].
  vm_compute. apply Merge_r. apply Merge_l. apply Merge_nil.
Qed.
Print Assumptions C09_overflow_refuted.

(* the code as found (before fixes/C09_direct_response_state.diff): direct processing answers Fin
   although the handler returned Fail and the report says Fail *)
Theorem C09_direct_refuted :
  exists r, reqs_ok [EvReq r] /\
    let o := snd (prun_orig (pinit 0 0) [EvReq r]) in
    resp_of 1 o = [Some (mkInfo 1 Fin ENone false)] /\ part_states (parts_of 1 o) = [Fail] /\
    tx_legal Fin [Fail] = false.
Proof.
  exists (mkReq true true (Returns Fail) 0 0). split; [repeat constructor|]. vm_compute. auto.
Qed.
Print Assumptions C09_direct_refuted.

(* the code as found (before fixes/C09_consumer_failed_parts.diff): a Fail response drops the report
   part (the one carrying the error information) that arrived before it *)
Theorem C09_failed_parts_refuted :
  let es := [CPart (mkCP 1 Fail 0); CResp 1 Fail] in
  own_parts 1 (before_resp 1 es) = [mkCP 1 Fail 0] /\
  done_of 1 (crun_orig cinit es) = [mkCR Fail Fail true []].
Proof. vm_compute. auto. Qed.
Print Assumptions C09_failed_parts_refuted.

(* why the lock discipline is part of gen_ok: a notification handler that leaves the critical section
   before it buffers the part of a (still) unknown transaction lets the response slip in between -- the
   final part ends up in the buffer, the call stays registered and never completes *)
Theorem C09_unlocked_buffer_refuted :
  let s := urun_gen (mkU cinit []) [UDecide (mkCP 1 Fin 0); UResp 1 Wait; UFlush] in
  done_of 1 (u_c s) = [] /\ aget 1 (c_pend (u_c s)) = Some (Wait, []) /\ c_recent (u_c s) = [mkCP 1 Fin 0].
Proof. vm_compute. auto. Qed.
Print Assumptions C09_unlocked_buffer_refuted.

(* why "a full queue refuses" is part of gen_ok: an enqueue that swallows queue.Full answers Wait and
   forgets the operation -- a burst of sco_queue_cap + 1 queued requests while the worker is busy, then
   the worker drains: the last transaction was answered Wait and nothing is ever reported for it *)
Theorem C09_lost_wait_refuted :
  let r := mkReq true false (Returns Fin) 0 0 in
  let es := repeat (EvReq r) (S sco_queue_cap) ++ drain (S sco_queue_cap) in
  let last := Z.of_nat (S sco_queue_cap) in
  reqs_ok es /\
  quiescent (fst (prun_lostwait (pinit 0 0) es)) = true /\
  resp_of last (snd (prun_lostwait (pinit 0 0) es)) = [Some (mkInfo last Wait ENone false)] /\
  parts_of last (snd (prun_lostwait (pinit 0 0) es)) = [].
Proof.
  split; [|vm_compute; auto].
  apply reqs_ok_drain, Forall_forall. intros e He. apply repeat_spec in He. subst e. reflexivity.
Qed.
Print Assumptions C09_lost_wait_refuted.

(* why "a restarted consumer gets a new manager" is part of gen_ok: a manager that survives the restart
   still buffers the parts of an old transaction 1 of another consumer; the device has rebooted, ids start
   again, and the first call (answered Wait, nothing reported yet) completes at once with the old
   transaction's final state and parts *)
Theorem C09_stale_manager_refuted :
  let old := [CPart (mkCP 1 Wait 0); CPart (mkCP 1 Start 1); CPart (mkCP 1 Fin 2)] in
  let s0 := crun_gen cinit old in
  ~ fresh 1 s0 /\
  done_of 1 (crun_gen s0 [CResp 1 Wait]) = [mkCR Fin Wait false [mkCP 1 Wait 0; mkCP 1 Start 1; mkCP 1 Fin 2]].
Proof. split; [intros (_ & H & _); vm_compute in H; discriminate H|vm_compute; reflexivity]. Qed.
Print Assumptions C09_stale_manager_refuted.

Example C09_nonvacuous :
  (* queued processing, raising handler, a second consumer's direct request in between *)
  let es := [EvReq (mkReq true false Raises 0 3); EvTake; EvReq (mkReq true true (Returns FinMod) 1 4); EvFinish] in
  reqs_ok es /\
  quiescent (fst (prun_gen (pinit 41 7) es)) = true /\
  enc_resps (snd (prun_gen (pinit 41 7) es)) = [[1; 42; 0; 0; 0]; [1; 43; 5; 0; 0]] /\
  part_states (parts_of 42 (snd (prun_gen (pinit 41 7) es))) = [Wait; Start; Fail] /\
  (* report before response, a foreign part in between *)
  let ces := [CPart (mkCP 42 Wait 0); CPart (mkCP 9 Fin 1); CResp 42 Wait; CPart (mkCP 42 Start 2); CPart (mkCP 42 Fail 3)] in
  fresh 42 cinit /\
  Merge [CResp 42 Wait] (map CPart ([mkCP 42 Wait 0; mkCP 42 Start 2] ++ [mkCP 42 Fail 3])) (filter (mentions 42) ces) /\
  (parts_before 42 ces <= recent_cap)%nat /\
  done_of 42 (crun_gen cinit ces) = [mkCR Fail Wait false [mkCP 42 Wait 0; mkCP 42 Start 2; mkCP 42 Fail 3]].
Proof.
  vm_compute. repeat split; auto; try (repeat constructor; fail); try lia.
Qed.
