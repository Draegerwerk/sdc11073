(* C07 -- Get responses are consistent snapshots under concurrent transactions.
   Property theorems only (model: Conc/Model.v; the programs are regenerated on every run by tracing the
   running handlers: Conc/Gen_Programs.v). *)
From Coq Require Import List ZArith Bool.
From SDC Require Import Conc.Model Conc.Proofs Conc.Gen_Programs.
Import ListNotations.
Open Scope Z_scope.

(* the traced programs of GetMdib / GetMdState / GetMdDescription / GetContextStates (with and without handle
   list) all build their response inside ONE critical section of the MDIB lock, and the traced commit changes the
   MDIB only while holding that lock (finite check on the regenerated programs) *)
Theorem C07_handlers_safe :
  prog_eqb prog_commit writer_prog = true /\
  forallb (fun p => prog_eqb p reader_prog) handler_programs = true.
Proof. exact (conj eq_refl eq_refl). Qed.
Print Assumptions C07_handlers_safe.

Lemma C07_system progs v0 sched :
  Forall (fun p => p = prog_commit \/ In p handler_programs) progs -> Inv (run sched (init progs v0)).
Proof.
  intros Hp. apply reachable_inv, (one_commit_shapes prog_commit handler_programs); [apply C07_handlers_safe..|exact Hp].
Qed.

(* ANY number of threads, each running the traced commit or one of the traced handlers any number of times,
   under EVERY interleaving at lock-acquire / release granularity: every completed response shows the content
   of exactly the MdibVersion it states *)
Theorem C07_snapshot : forall progs v0 sched,
  Forall (fun p => p = prog_commit \/ In p handler_programs) progs ->
  responses_consistent (run sched (init progs v0)) = true.
Proof. intros progs v0 sched Hp. apply inv_done, C07_system, Hp. Qed.
Print Assumptions C07_snapshot.

(* the same system in EVERY reachable state (not only when a response is complete): no two threads are inside the
   MDIB lock together, nor inside the transaction lock *)
Theorem C07_mutual_exclusion : forall progs v0 sched,
  Forall (fun p => p = prog_commit \/ In p handler_programs) progs ->
  let s := run sched (init progs v0) in
  forall i j thi thj, i <> j -> nth_error (g_threads s) i = Some thi -> nth_error (g_threads s) j = Some thj ->
    (holds_mdib thi && holds_mdib thj = false) /\ (holds_tr thi && holds_tr thj = false).
Proof.
  intros progs v0 sched Hp s i j thi thj Hij Ei Ej. pose proof (C07_system progs v0 sched Hp) as I.
  split; [apply (excl_andb _ _ i j _ _ (inv_xmd _ I))|apply (excl_andb _ _ i j _ _ (inv_xtr _ I))]; assumption.
Qed.
Print Assumptions C07_mutual_exclusion.

(* a Get handler between its two reads: what it has read so far IS the content of the current MdibVersion - no
   commit slips in between reading the content and reading the version - and the pair it ends with agrees *)
Theorem C07_handler_in_flight : forall progs v0 sched,
  Forall (fun p => p = prog_commit \/ In p handler_programs) progs ->
  let s := run sched (init progs v0) in
  forall i th, nth_error (g_threads s) i = Some th -> t_prog th = reader_prog ->
    ((t_pc th <= 1)%nat -> t_c th = -1 /\ t_v th = -1) /\
    (t_pc th = 2%nat -> t_c th = g_ver s /\ t_v th = -1) /\
    (t_pc th = 3%nat -> t_c th = g_ver s /\ t_v th = g_ver s) /\
    (t_pc th = 4%nat -> t_c th = t_v th).
Proof.
  intros progs v0 sched Hp s i th Ei Hr.
  destruct (inv_th _ (C07_system progs v0 sched Hp) i th Ei) as [(Hw & _)|(_ & P)].
  - unfold W in Hw. rewrite Hr in Hw. discriminate.
  - (* P is the row of wfth for the thread's pc *)
    split; [intros Hpc|split; [|split]; intros Hpc; rewrite Hpc in P; exact P].
    destruct (t_pc th) as [|[|pc]]; [exact P|exact P|]. now apply Nat.succ_le_mono, Nat.nle_succ_0 in Hpc.
Qed.
Print Assumptions C07_handler_in_flight.

(* a committing thread: between its commit and the hand-over of the reports its version is the current one and
   newer than everything handed to a subscriber so far *)
Theorem C07_commit_in_flight : forall progs v0 sched,
  Forall (fun p => p = prog_commit \/ In p handler_programs) progs ->
  let s := run sched (init progs v0) in
  forall i th, nth_error (g_threads s) i = Some th -> t_prog th = writer_prog ->
    t_v th = -1 /\ t_c th = -1 /\
    (t_pc th = 3%nat -> t_pending th = g_ver s /\ Forall (fun q => q < g_ver s) (g_queue s)).
Proof.
  intros progs v0 sched Hp s i th Ei Hw.
  destruct (inv_th _ (C07_system progs v0 sched Hp) i th Ei) as [(_ & Hv & Hc & P)|(Hr & _)].
  - split; [exact Hv|]. split; [exact Hc|]. intros Hpc. rewrite Hpc in P. exact P.
  - unfold R in Hr. rewrite Hw in Hr. discriminate.
Qed.
Print Assumptions C07_commit_in_flight.

(* the hypothesis matters: a handler that reads the version after leaving the critical section (the shape of
   GetMdState / GetContextStates before the repair) can answer MdibVersion 1 with the content of version 0 *)
Theorem C07_unsafe_refuted :
  exists sched, responses_consistent (run sched (init [writer_prog; unsafe_reader_prog] 0)) = false.
Proof. exists [1; 1; 1; 0; 0; 0; 0; 0; 0; 1; 1]%nat. vm_compute. reflexivity. Qed.
Print Assumptions C07_unsafe_refuted.

Example C07_nonvacuous :
  let s := run [0; 1; 0; 1; 0; 0; 1; 1; 0; 0; 1; 1; 0]%nat (init [prog_commit; prog_GetMdState] 5) in
  g_ver s = 6 /\ g_done s = [(5, 5)] /\ In prog_GetMdState handler_programs.
Proof. cbv zeta. split; [vm_compute; reflexivity|]. split; [vm_compute; reflexivity|]. right. left. reflexivity. Qed.
