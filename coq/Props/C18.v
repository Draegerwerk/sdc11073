(* C18 -- Scalar XML value conversions are exact over the wire value space.
   The property theorems; the theory they rest on is in Scalars/*_Proofs.v.
   The models are those of the code with the repairs fixes/C18_*.diff applied; the [.._refuted]
   theorems record what the unrepaired code did (timestamps, decimal digit cap) and what is left
   as a known finding (booleans). *)
From Coq Require Import List ZArith Bool Lia String Ascii QArith Qabs.
From SDC Require Import Scalars.Lex Scalars.Lex_Proofs Scalars.Timestamp Scalars.Timestamp_Proofs
  Scalars.Decimal Scalars.Decimal_Proofs Scalars.Decimal_Lex_Proofs Scalars.Duration Scalars.Duration_Proofs
  Scalars.DateTime Scalars.DateTime_Proofs Scalars.Duration_Float_Proofs Scalars.DecimalFloat Scalars.DecimalFloat_Proofs.
Import ListNotations.
Open Scope Z_scope.

(* binary64 round-to-nearest as modelled: the result (a, b) of rounding p/q has relative error at
   most 2^-53, |a/b - p/q| <= (p/q) * 2^-53, written without division *)
Theorem C18_rnd53_relative_error : forall p q, 0 <= p -> 0 < q ->
  0 < snd (rnd53 p q) /\
  - (p * snd (rnd53 p q)) <= (fst (rnd53 p q) * q - p * snd (rnd53 p q)) * 2 ^ 53 <= p * snd (rnd53 p q).
Proof. intros p q Hp Hq. destruct (rnd53_spec p q Hp Hq) as (a & b & -> & Hb & _ & H). exact (conj Hb H). Qed.
Print Assumptions C18_rnd53_relative_error.

(* ... and its mantissa has 53 bits (2^53 itself when the rounding carries into the next binade) *)
Theorem C18_rnd53_mantissa_53_bits : forall p q, 0 < p -> 0 < q -> 2 ^ 52 <= rnd53_mant p q <= 2 ^ 53.
Proof. intros p q Hp Hq. destruct (rnd53_mant_spec p q Hp Hq) as (_ & _ & _ & M & _). exact M. Qed.
Print Assumptions C18_rnd53_mantissa_53_bits.

(* every millisecond count below 2^53/1000 survives XML -> Python -> XML unchanged *)
Theorem C18_ts_xml_py_xml : forall n, 0 <= n -> n * 1000 < 2 ^ 53 -> ts_to_xml (ts_to_py n) = n.
Proof.
  intros n Hn Hb. unfold ts_to_xml, ts_to_py, mul1000, round_fr.
  destruct (rnd53_spec n 1000 Hn ltac:(lia)) as (a1 & b1 & -> & Hb1 & Ha1 & H1). cbn [fst snd].
  destruct (rnd53_spec (a1 * 1000) b1 ltac:(lia) Hb1) as (a2 & b2 & -> & Hb2 & _ & H2). cbn [fst snd].
  apply rne_div_unique; [exact Hb2|].
  (* over the common denominator b1 * b2 everything is linear *)
  apply (band_scale b2) in H1; [|lia].
  assert (Hb' : n * 1000 * (b1 * b2) < 2 ^ 53 * (b1 * b2)) by (apply Z.mul_lt_mono_pos_r; lia).
  split; apply (Z.mul_lt_mono_pos_r b1 _ _ Hb1); lia.
Qed.
Print Assumptions C18_ts_xml_py_xml.

(* Python -> XML -> Python changes a timestamp x = a/b (any non-negative dyadic or other fraction, in
   particular every binary64) with 1000 x <= 2^50 by less than one millisecond:
   with x' = fst x' / snd x',  |x' - x| * 1000 < 1, written without division *)
Theorem C18_ts_py_xml_py : forall a b, 0 <= a -> 0 < b -> a * 1000 <= 2 ^ 50 * b ->
  let x' := ts_to_py (ts_to_xml (a, b)) in
  0 < snd x' /\ - (b * snd x') < (fst x' * b - a * snd x') * 1000 < b * snd x'.
Proof. exact ts_py_xml_py. Qed.
Print Assumptions C18_ts_py_xml_py.

(* the same with rational values: |x' - x| < 1/1000 *)
Theorem C18_ts_py_xml_py_Q : forall a b, 0 <= a -> 0 < b -> a * 1000 <= 2 ^ 50 * b ->
  (Qabs (frQ (ts_to_py (ts_to_xml (a, b))) - frQ (a, b)) < 1 # 1000)%Q.
Proof.
  intros a b Ha Hb Hr. destruct (ts_py_xml_py a b Ha Hb Hr) as [Hb3 [L U]].
  destruct (ts_to_py (ts_to_xml (a, b))) as [p q]. cbn [fst snd] in *.
  unfold frQ, Qminus, Qplus, Qopp, Qabs, Qlt. cbn [Qnum Qden fst snd].
  rewrite Pos2Z.inj_mul, !Z2Pos.id by assumption. lia.
Qed.
Print Assumptions C18_ts_py_xml_py_Q.

(* wire level: the decimal string of n is parsed, converted to a float, converted back and printed unchanged *)
Theorem C18_ts_wire_roundtrip : forall n, 0 <= n -> n * 1000 < 2 ^ 53 ->
  option_map ts_to_xml_str (ts_to_py_str (str (print_Z n))) = Some (str (print_Z n)).
Proof.
  intros n Hn Hb. unfold ts_to_py_str. rewrite chars_str, int_print_parse.
  destruct (Z.ltb_spec n 0); [lia|]. simpl. unfold ts_to_xml_str.
  fold (ts_to_py n). now rewrite C18_ts_xml_py_xml.
Qed.
Print Assumptions C18_ts_wire_roundtrip.

Lemma ts_trunc_1001 : ts_to_xml_trunc (ts_to_py 1001) = 1000.
Proof. vm_compute. reflexivity. Qed.

(* the code before the repair (int() truncation) loses the millisecond 1001 *)
Theorem C18_ts_truncation_refuted :
  exists n, 0 <= n /\ n * 1000 < 2 ^ 53 /\ ts_to_xml_trunc (ts_to_py n) <> n.
Proof. exists 1001. split; [discriminate|]. split; [reflexivity|]. rewrite ts_trunc_1001. discriminate. Qed.
Print Assumptions C18_ts_truncation_refuted.

(* a Decimal with at most 18 coefficient digits and ANY exponent (so in particular -18..18), negative and
   zero included, is written to a string that reads back with the same numeric value *)
Theorem C18_decimal_value : forall d, wf_dec d = true -> len (ddigs d) <= 18 ->
  exists d', dec_parse (dec_to_xml_l d) = Some d' /\ dec_value_eq d' d.
Proof. exact dec_py_xml_py. Qed.
Print Assumptions C18_decimal_value.

(* exponent notation is never written: only digits, '.' and '-' *)
Theorem C18_decimal_no_exponent : forall d, wf_dec d = true -> forallb plain_char (dec_to_xml_l d) = true.
Proof. intros d W. unfold dec_to_xml_l. now apply surgery_plain, format_f_plain. Qed.
Print Assumptions C18_decimal_no_exponent.

(* XML -> Python: whatever to_py accepts lies in the lexical space of xsd:decimal
   (white space, optional sign, digits with optional '.' and fraction digits) and is the Decimal with exactly
   those digits: no 'E', 'NaN', 'Infinity', '_' or non-ASCII digit is accepted, no digit is dropped *)
Theorem C18_decimal_rejects_non_lexical : forall s d, dec_parse s = Some d -> dec_lexical s d.
Proof. exact dec_parse_lexical. Qed.
Print Assumptions C18_decimal_rejects_non_lexical.

(* the digit cap of the code before the repair (tail[:18 - len(head)]) loses 1E-18 *)
Theorem C18_decimal_old_cap_refuted :
  exists d, wf_dec d = true /\ len (ddigs d) <= 18 /\ -18 <= dexp d <= 18 /\
    exists d', dec_parse (surgery_old (format_f d)) = Some d' /\ dec_value_eqb d' d = false.
Proof.
  exists (mkdec false "1" (-18)).
  split; [reflexivity|]. split; [discriminate|]. split; [split; discriminate|].
  exists (mkdec false "0" 0). split; reflexivity.
Qed.
Print Assumptions C18_decimal_old_cap_refuted.

(* float arguments (DecimalConverter._float_to_xml: round(x, n) and the 'f' format with n = 1 / 2 / 3 fraction digits for
   |x| >= 100 / >= 10 / below, both modelled exactly on the binary64 |x| = a / b): for EVERY non-negative binary64, in
   particular above 1e16 where str(float) would use an exponent, only digits, '.' and '-' are written *)
Theorem C18_decimal_float_no_exponent : forall neg a b, 0 <= a -> 0 < b ->
  forallb plain_char (float_to_xml_l neg a b) = true.
Proof. intros. unfold float_to_xml_l. apply surgery_plain. now apply float_format_plain. Qed.
Print Assumptions C18_decimal_float_no_exponent.

(* the documented rounding: the printed count of 10^-n units is within half a unit of y = round(x, n) *)
Theorem C18_decimal_float_rounding : forall a b, 0 <= a -> 0 < b ->
  let n := fdigits a b in let y := round_nd a b n in
  0 < snd y /\ - snd y <= 2 * (float_units a b * snd y - fst y * 10 ^ n) <= snd y.
Proof.
  intros a b Ha Hb n y. subst n y. destruct (round_nd_spec a b Ha Hb) as (_ & _ & S).
  split; [exact S|]. apply rne_div_bounds, S.
Qed.
Print Assumptions C18_decimal_float_rounding.

(* IntegerConverter: str(n) is read back by int() as n, for every integer *)
Theorem C18_int_py_xml_py : forall n, int_parse (print_Z n) = Some n.
Proof. exact int_print_parse. Qed.
Print Assumptions C18_int_py_xml_py.

(* whatever is accepted lies in  ws* [+-]? digit+ ws*  and denotes the returned value: other forms are rejected *)
Theorem C18_int_rejects_non_lexical : forall s v, int_parse s = Some v -> int_lexical s v.
Proof. exact int_parse_lexical. Qed.
Print Assumptions C18_int_rejects_non_lexical.

(* BooleanConverter.to_py never rejects: "foo" is coerced to False (asserted by tests/test_dataconverters.py) *)
Theorem C18_bool_rejects_refuted : exists s, bool_lexical s = false /\ bool_to_py s = false.
Proof. exists "foo"%string. split; reflexivity. Qed.
Print Assumptions C18_bool_rejects_refuted.

(* partial: on the four literals of xsd:boolean the conversion is right, and canonical forms round-trip *)
Theorem C18_bool_partial : forall s, bool_lexical s = true -> bool_denotes s (bool_to_py s).
Proof.
  intros s H. unfold bool_lexical, bool_to_py, bool_denotes in *.
  repeat (apply orb_prop in H as [H|H]); apply list_ceq_eq in H;
    apply (f_equal str) in H; rewrite !str_chars in H; subst s; vm_compute; intuition.
Qed.
Print Assumptions C18_bool_partial.

(* BooleanConverter: 'true' / 'false' as written by to_xml are read back as the same value *)
Theorem C18_bool_py_xml_py : forall b, bool_to_py (bool_to_xml b) = b.
Proof. destruct b; reflexivity. Qed.
Print Assumptions C18_bool_py_xml_py.

(* EnumConverter.to_py (klass(xml_value)) accepts exactly the values of the enumeration's members ... *)
Theorem C18_enum_accepts_iff_literal : forall lits s, (exists v, enum_to_py lits s = Some v) <-> In s lits.
Proof.
  intros lits s. unfold enum_to_py. destruct (str_mem (chars s) (map chars lits)) eqn:E.
  - apply str_mem_In in E. apply in_map_iff in E as [x [E I]].
    apply (f_equal str) in E. rewrite !str_chars in E. subst x. split; eauto.
  - split; [intros [v H]; discriminate|]. intros I. exfalso.
    assert (str_mem (chars s) (map chars lits) = true) by (apply str_mem_In, in_map, I). congruence.
Qed.
Print Assumptions C18_enum_accepts_iff_literal.

(* ... and to_xml (member.value) gives back the string that was read *)
Theorem C18_enum_roundtrip : forall lits s v, enum_to_py lits s = Some v -> v = s.
Proof. intros lits s v. unfold enum_to_py. destruct (str_mem _ _); congruence. Qed.
Print Assumptions C18_enum_roundtrip.

(* DurationConverter, Python -> XML -> Python, on the integer-microsecond model [parse_duration_us] of parse_duration
   (fractions rounded on the exact decimal value; the binary64-faithful model [parse_duration_f] has its own round trip
   below): what duration_string writes for a microsecond count below timedelta.max is read back as that count *)
Theorem C18_duration_roundtrip : forall u, 0 <= u < max_us -> parse_duration_us (duration_string_us u) = u.
Proof.
  intros u [U0 U1].
  destruct (duration_string_canonical u U0) as (oh & om & os & s & us & -> & Wh & Wm & Ws & Some1 & E & _ & _ & V).
  rewrite parse_canonical by assumption. unfold parse_result.
  apply Z.leb_gt in U1. destruct os as [[ds F]|].
  - destruct V as (Vs & SL & FL & FV).
    rewrite (proj2 (Z.ltb_ge 15 _)), (proj2 (Z.ltb_ge 5 _)), andb_false_r
      by (apply Z.le_trans with (1 := SL); discriminate).
    unfold frac_us. rewrite (proj2 (Z.leb_le _ 6) FL), Vs, FV. cbv zeta. now rewrite E, U1.
  - destruct V as [-> ->]. cbv zeta. rewrite Z.mul_0_l, !Z.add_0_r in E. now rewrite E, U1.
Qed.
Print Assumptions C18_duration_roundtrip.

(* the same model: whatever it does not reject matches PT[nH][nM][n[.n]S] with at least one group *)
Theorem C18_duration_rejects_non_lexical : forall s, parse_duration_us s <> D_REJECT -> dur_lexical s.
Proof.
  intros s H. rewrite parse_duration_us_fields in H.
  destruct (dur_fields s) eqn:E; [now apply dur_fields_lexical in E|now elim H].
Qed.
Print Assumptions C18_duration_rejects_non_lexical.

(* XML -> Python, binary64-faithful model [parse_duration_f] of parse_duration (Scalars/Duration.v): the code computes
   float('<seconds>.<fraction>'), timedelta rounds that binary64 half-even to whole microseconds, total_seconds() divides by
   10**6.  A fraction of ANY length is therefore rounded (not truncated, not re-scaled).  For every lexical form
       PT [<digits>H] [<digits>M] [<digits>[.<digits>]S] [LF]
   whose exact value N/D microseconds is at most 2^31 s: the form is accepted, the timedelta's microsecond count u is within
   0.75 us of N/D, and the returned binary64 a/b is within LESS THAN ONE MICROSECOND of the exact value:
   |a/b - N/(10^6 D)| < 10^-6, written without division. *)
Theorem C18_duration_parse_within_1us : forall oh om os nl, wf_fld oh -> wf_fld om -> wf_secs os ->
  is_some oh || is_some om || is_some os = true -> (nl = [] \/ nl = [ascii_of_N 10]) ->
  let s := "P"%char :: "T"%char :: fld "H"%char oh ++ fld "M"%char om ++ secs os ++ nl in
  let N := fst (dur_exact_us oh om os) in let D := snd (dur_exact_us oh om os) in
  N <= 2 ^ 31 * 1000000 * D ->
  exists u a b, parse_duration_f s = DfOk u (a, b) /\ 0 < b /\ 0 < D /\
     - (3 * D) <= 4 * (u * D - N) <= 3 * D /\
     - (b * D) < a * D * 1000000 - N * b < b * D.
Proof.
  intros oh om os nl Wh Wm Ws Some1 NL s N D HN.
  destruct (dur_total_us_close oh om os Wh Wm Ws HN) as (U0 & HD & HW). fold N D in HD, HW.
  destruct (float_of_us_1us _ N D U0 HD HN HW) as (HU & Hb & HF). cbv zeta in Hb, HF.
  exists (dur_total_us oh om os), (fst (rnd53 (dur_total_us oh om os) 1000000)),
         (snd (rnd53 (dur_total_us oh om os) 1000000)).
  split; [|auto].
  subst s. unfold parse_duration_f.
  rewrite (dur_fields_canonical_nl oh om os nl Wh Wm Ws Some1 NL). cbv zeta.
  replace (max_us <=? dur_total_us oh om os) with false.
  - rewrite <- surjective_pairing. reflexivity.
  - symmetry. apply Z.leb_gt. apply Z.le_lt_trans with (1 := HU). reflexivity.
Qed.
Print Assumptions C18_duration_parse_within_1us.

(* up to six fraction digits nothing is rounded: the microsecond count is exactly the decimal value *)
Theorem C18_duration_parse_exact_up_to_6_digits : forall d f, all_digits d = true -> all_digits f = true -> len f <= 6 ->
  digits_val d < 2 ^ 31 ->
  td_float_us (sec_float d f) = digits_val d * 1000000 + digits_val f * 10 ^ (6 - len f).
Proof. exact td_float_us_exact6. Qed.
Print Assumptions C18_duration_parse_exact_up_to_6_digits.

(* Python -> XML -> Python on the binary64-faithful parser: what duration_string writes is read back as the same
   microsecond count (and total_seconds() of it) *)
Theorem C18_duration_roundtrip_float_model : forall u, 0 <= u < max_us ->
  parse_duration_f (duration_string_us u) = DfOk u (rnd53 u 1000000).
Proof.
  intros u [U0 U1].
  destruct (duration_string_canonical u U0) as (oh & om & os & s & us & -> & Wh & Wm & Ws & Some1 & E & Bs & _ & V).
  unfold parse_duration_f. rewrite dur_fields_canonical by assumption. cbv zeta.
  replace (dur_total_us oh om os) with u.
  - apply Z.leb_gt in U1. now rewrite U1.
  - unfold dur_total_us. destruct os as [[ds F]|].
    + destruct Ws as (Ad & _ & AF). destruct V as (Vs & _ & FL & FV).
      rewrite (td_float_us_exact6 ds F Ad AF FL), Vs, FV; [now rewrite Z.add_assoc|].
      rewrite Vs. apply Z.lt_trans with 60; [apply Bs|reflexivity].
    + destruct V as [-> ->]. lia.
Qed.
Print Assumptions C18_duration_roundtrip_float_model.

(* the binary64-faithful parser accepts nothing outside PT[nH][nM][n[.n]S] with at least one group *)
Theorem C18_duration_float_model_rejects_non_lexical : forall s, parse_duration_f s <> DfReject -> dur_lexical s.
Proof.
  intros s H. unfold parse_duration_f in H.
  destruct (dur_fields s) eqn:E; [now apply dur_fields_lexical in E|now elim H].
Qed.
Print Assumptions C18_duration_float_model_rejects_non_lexical.

(* every valid xsd:dateTime / date / gYearMonth / gYear value (any year, optional time zone, end-of-day form)
   is written to a string that parses back to exactly the same value *)
Theorem C18_datetime_roundtrip : forall v, dt_valid v = true -> parse_dt (dt_chars v) = DtOk v.
Proof. exact dt_py_xml_py. Qed.
Print Assumptions C18_datetime_roundtrip.

(* the second field is kept as a binary64: for a decimal second n/D < 60 with a fraction of any length the stored value
   (repaired code: the largest binary64 below 60 when float() rounds up to 60.0) is below 60 and within one microsecond *)
Theorem C18_datetime_second_within_1us : forall n D, 0 <= n -> 0 < D -> n < 60 * D ->
  let x := clamp_second (rnd53 n D) in
  0 < snd x /\ fst x < 60 * snd x /\ - (snd x * D) < (fst x * D - n * snd x) * 1000000 < snd x * D.
Proof.
  intros n D Hn HD Hlt. cbv zeta. unfold clamp_second.
  destruct (rnd53_spec n D Hn HD) as (a & b & -> & Hb & _ & R). cbn [fst snd].
  destruct (Z.leb_spec (60 * b) a) as [Hge|Hlt60]; cbn [fst snd].
  2: { apply (Z.mul_lt_mono_pos_r b) in Hlt; [|exact Hb]. lia. }
  (* a / b >= 60 is within 2^-53 of n / D < 60: so is 60, and the largest binary64 below 60 is closer still *)
  apply (Z.mul_le_mono_nonneg_r _ _ D) in Hge; [|lia].
  assert (K : (60 * D - n) * 2 ^ 53 <= n) by (apply (Z.mul_le_mono_pos_r _ _ b Hb); lia).
  unfold max_second. cbn [fst snd]. lia.
Qed.
Print Assumptions C18_datetime_second_within_1us.

Lemma float_59_999 : 60 * snd (rnd53 59999999999999999 (10 ^ 15)) <= fst (rnd53 59999999999999999 (10 ^ 15)).
Proof. vm_compute. discriminate. Qed.

(* the code before the repair: 59.999999999999999 is a valid second, float() gives 60.0, XsdDateInformation refuses it *)
Theorem C18_datetime_second_rounds_to_60_refuted : exists n D, 0 <= n /\ 0 < D /\ n < 60 * D /\
  60 * snd (rnd53 n D) <= fst (rnd53 n D).
Proof.
  exists 59999999999999999, (10 ^ 15). split; [discriminate|]. split; [reflexivity|]. split; [reflexivity|].
  exact float_59_999.
Qed.
Print Assumptions C18_datetime_second_rounds_to_60_refuted.

Example C18_nonvacuous :
  ts_to_py 1001 = (4616297704445814784, 4611686018427387904) /\ ts_to_xml (ts_to_py 1001) = 1001 /\
  ts_to_xml_trunc (ts_to_py 1001) = 1000 /\
  wf_dec (mkdec true "123456789012345678" (-18)) = true /\
  dec_to_xml (mkdec true "123456789012345678" (-18)) = "-0.123456789012345678"%string /\
  dec_to_xml (mkdec false "1" (-7)) = "0.0000001"%string /\
  duration_to_xml 3661000001 = "PT1H1M1.000001S"%string /\ duration_to_py "PT1H1M1.000001S" = 3661000001 /\
  int_to_py " +0012 " = Some 12 /\ int_to_py "1_0" = None /\
  dt_valid (mkdt 2020 (Some 5) None None false (Some (-360))) = true /\
  dt_to_xml (mkdt 2020 (Some 5) None None false (Some (-360))) = "2020-05-06:00"%string.
Proof.
  rewrite (C18_ts_xml_py_xml 1001), ts_trunc_1001; [|discriminate|reflexivity].
  vm_compute. repeat split; reflexivity.
Qed.

(* duration fractions longer than six digits (rounded half-even on the binary64, never mis-scaled), the second field of
   xsd:dateTime next to 60 and beyond six digits, and float arguments of DecimalConverter *)
Example C18_nonvacuous_long_fraction :
  duration_to_py_us "PT0.0100000S" = 10000 /\ duration_to_py_us "PT1.1234567S" = 1123457 /\
  duration_to_py_us "PT0.0000004S" = 0 /\ duration_to_py_us "PT0.0000005S" = 0 /\ duration_to_py_us "PT0.0000015S" = 2 /\
  duration_to_py_us "PT1H1M1.5000000000000000000001S" = 3661500000 /\
  check_duration_1us (chars "PT2147483647.9999999S") = true /\
  dt_second_float "2020-05-06T10:11:59.999999999999999" = Some max_second /\
  dt_second_float_old "2020-05-06T10:11:59.999999999999999" = None /\
  option_map (fr_eqb (rnd53 1201 100)) (dt_second_float "2020-05-06T10:11:12.0100000") = Some true /\
  decf_to_xml false (10 ^ 17) 1 = "100000000000000000"%string /\ decf_to_xml true 25 1000 = "-0.025"%string /\
  decf_to_xml false 421 10 = "42.1"%string /\ decf_to_xml false 9007199254740993 8 = "1125899906842624"%string.
Proof.
  (* the first and the sixth duration are within a quarter microsecond of a whole number of microseconds, which
     td_float_us_near turns into a comparison of small numbers; the rounding of 59.999999999999999 to 60.0 is evaluated
     once, in float_59_999; everything else is evaluated as it stands *)
  destruct (dt_second_float_60 "2020-05-06T10:11:59.999999999999999" 59999999999999999 (10 ^ 15) eq_refl eq_refl float_59_999)
    as [-> ->].
  rewrite (duration_to_py_us_secs "PT0.0100000S" None None (chars "0") (chars "0100000") 10000),
    (duration_to_py_us_secs "PT1H1M1.5000000000000000000001S" (Some (chars "1")) (Some (chars "1"))
       (chars "1") (chars "5000000000000000000001") 1500000).
  - vm_compute. repeat split; reflexivity.
  - reflexivity.
  - apply td_float_us_near; [apply Z.leb_le; reflexivity|reflexivity|apply Z.leb_le; reflexivity|split; reflexivity].
  - reflexivity.
  - reflexivity.
  - apply td_float_us_near; [apply Z.leb_le; reflexivity|reflexivity|apply Z.leb_le; reflexivity|split; reflexivity].
  - reflexivity.
Qed.
