(* C04 -- Reports are complete, truthful, schema-valid and delivered in version order.
   Property theorems only.  Content: Mdib/Model.v; delivery order under concurrent writers: Conc/Model.v. *)
From Coq Require Import List ZArith.
From SDC Require Import Mdib.Model Mdib.Proofs.
Import ListNotations.
Open Scope Z_scope.

(* the report of a committed state transaction (its item list, stamped with the committed MdibVersion)
   contains exactly the states the transaction changed - each once, with the values and version counters
   they have in the MDIB after the commit - and nothing else *)
Theorem C04_state_report_exact : forall k m t, stx_ok k m t ->
  let m' := commit_states m t in
  NoDup (map fst (t_s t)) /\
  (forall h s, In (h, s) (t_s t) -> states m' h = Some s /\ states m h <> Some s) /\
  (forall h, states m' h <> states m h -> exists s, In (h, s) (t_s t)) /\
  (t_s t <> [] -> ver m' = ver m + 1).
Proof. exact state_report_exact. Qed.
Print Assumptions C04_state_report_exact.

(* every state transaction body that is accepted produces such an item list *)
Theorem C04_body_wellformed : forall k m acts t, 0 <= k < 5 -> state_only acts ->
  body k m empty_tx acts = Ok t -> stx_ok k m t.
Proof. exact (fun k m acts t Hk Ho B => body_state_ok k m Hk acts empty_tx t Ho (empty_stx_ok k m) B). Qed.
Print Assumptions C04_body_wellformed.

(* delivery order under concurrent writers (model: Conc/Model.v, programs traced from the running code) *)
From SDC Require Import Conc.Model Conc.Proofs Conc.Gen_Programs.

(* the traced commit sends its reports between acquiring and releasing the transaction lock *)
Theorem C04_commit_program_safe : prog_eqb prog_commit writer_prog = true.
Proof. exact eq_refl. Qed.
Print Assumptions C04_commit_program_safe.

(* ANY number of writer threads (each committing any number of transactions) and request handlers, EVERY
   interleaving of their lock acquisitions: each subscriber is handed the reports in strictly increasing
   MdibVersion order, and never a version the MDIB has not reached *)
Theorem C04_order : forall progs v0 sched,
  Forall (fun p => p = prog_commit \/ In p handler_programs) progs ->
  sorted_lt (g_queue (run sched (init progs v0))) = true /\
  Forall (fun q => q <= g_ver (run sched (init progs v0))) (g_queue (run sched (init progs v0))).
Proof.
  intros progs v0 sched Hp.
  pose proof (reachable_inv progs v0 sched
                (one_commit_shapes prog_commit handler_programs progs C04_commit_program_safe eq_refl Hp)) as I.
  exact (conj (inv_sorted _ I) (inv_le _ I)).
Qed.
Print Assumptions C04_order.

(* the hypothesis matters: sending after the locks were released lets version 2 overtake version 1 *)
Theorem C04_unsafe_refuted :
  exists sched, sorted_lt (g_queue (run sched (init [unsafe_writer_prog; unsafe_writer_prog] 0))) = false.
Proof. exists [0; 0; 0; 0; 0; 1; 1; 1; 1; 1; 1; 0]%nat. vm_compute. reflexivity. Qed.
Print Assumptions C04_unsafe_refuted.

(* every transaction kind, and the periodic collector (programs traced by harness/impl/c04_trace_impl.py) *)

(* the traced commit of EVERY transaction kind (metric, alert, component, operational, context incl. a new context state,
   rt_sample / WaveformStream, descriptor update / create / delete) commits and puts its notifications on the wire between
   acquiring and releasing the transaction lock and the MDIB lock *)
Theorem C04_all_commit_programs_safe : forallb (fun p => prog_eqb p writer_prog) commit_programs = true.
Proof. exact eq_refl. Qed.
Print Assumptions C04_all_commit_programs_safe.

(* every traced iteration of the periodic collector reads the MdibVersion that labels its PeriodicStates and makes the
   state copies inside ONE critical section of the MDIB lock *)
Theorem C04_periodic_collector_safe : forallb (fun p => prog_eqb p reader_prog) periodic_programs = true.
Proof. exact eq_refl. Qed.
Print Assumptions C04_periodic_collector_safe.

Lemma C04_system_all progs v0 sched :
  Forall (fun p => In p commit_programs \/ In p (handler_programs ++ periodic_programs)) progs ->
  Inv (run sched (init progs v0)).
Proof.
  intros Hp. apply reachable_inv, (traced_shapes commit_programs (handler_programs ++ periodic_programs)).
  - exact C04_all_commit_programs_safe.
  - rewrite forallb_app, C04_periodic_collector_safe. reflexivity.
  - exact Hp.
Qed.

(* ANY number of writer threads running commits of ANY kind, request handlers and periodic collectors, EVERY interleaving:
   the subscriber queue is strictly increasing in MdibVersion and never ahead of the MDIB *)
Theorem C04_order_all_kinds : forall progs v0 sched,
  Forall (fun p => In p commit_programs \/ In p (handler_programs ++ periodic_programs)) progs ->
  sorted_lt (g_queue (run sched (init progs v0))) = true /\
  Forall (fun q => q <= g_ver (run sched (init progs v0))) (g_queue (run sched (init progs v0))).
Proof.
  exact (fun progs v0 sched Hp =>
           conj (inv_sorted _ (C04_system_all progs v0 sched Hp)) (inv_le _ (C04_system_all progs v0 sched Hp))).
Qed.
Print Assumptions C04_order_all_kinds.

(* ... and every completed collection (label, state copies) of a periodic collector shows the content of exactly the
   MdibVersion it is labelled with, whatever commits of whatever kind run concurrently *)
Theorem C04_periodic_label_truthful : forall progs v0 sched,
  Forall (fun p => In p commit_programs \/ In p (handler_programs ++ periodic_programs)) progs ->
  responses_consistent (run sched (init progs v0)) = true.
Proof. exact (fun progs v0 sched Hp => inv_done _ (C04_system_all progs v0 sched Hp)). Qed.
Print Assumptions C04_periodic_label_truthful.

(* the hypothesis matters: a collector that reads the label before it takes the MDIB lock labels the content of
   version 1 with MdibVersion 0 *)
Theorem C04_early_label_refuted :
  exists sched, responses_consistent (run sched (init [writer_prog; early_label_prog] 0)) = false.
Proof. exists [1; 0; 0; 0; 0; 0; 0; 1; 1; 1; 1]%nat. vm_compute. reflexivity. Qed.
Print Assumptions C04_early_label_refuted.

Example C04_all_kinds_nonvacuous :
  let s := run [0; 2; 0; 1; 0; 0; 0; 1; 0; 2; 1; 2; 1; 1; 2; 1; 2; 2; 2; 2]%nat
               (init [prog_commit_rt_sample; prog_periodic_collect_500; prog_commit_descriptor] 7) in
  g_ver s = 9 /\ g_queue s = [8; 9] /\ g_done s = [(8, 8)] /\
  In prog_commit_rt_sample commit_programs /\ In prog_periodic_collect_500 periodic_programs /\
  (7 <= length commit_programs)%nat.
Proof. cbv zeta. repeat split; vm_compute; auto 20. Qed.
