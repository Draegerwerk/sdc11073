(* C19 -- With TLS configured no endpoint is advertised or contacted in plaintext.
   The property theorems; they rest on the lemmas of Tls/Proofs.v.

   [secure r e]: event e of party r respects the property - an advertised address is https, a SOAP client is
   constructed with r's CLIENT context and opens an HTTPSConnection with it, no exchange succeeds with a plaintext
   port, an own HTTP server wraps its listening socket (server side) with r's SERVER context.
   Histories are arbitrary lists of inputs; the addresses found in received messages (NotifyTo / EndTo for the
   provider, hosted-service and subscription-manager addresses for the consumer) and the kind of the peer's port
   are chosen by the environment in every step.  Not modelled: the TLS handshake itself (abstracted by
   [handshake]). *)
From Coq Require Import List.
From SDC Require Import Common.ListFacts Tls.Model Tls.Proofs.
Import ListNotations.

(* a provider with a TLS container: every history, shared or own server, with or without alternative host name.
   Every request input carries the fields that the PEER chooses ([peerf]: wsa:To of any scheme and netloc with or
   without the path of the called service, wsa:ReplyTo, wsa:From, the Host header netloc, URLs in reference
   parameters) and Subscribe carries peer-chosen NotifyTo / EndTo: all universally quantified here *)
Theorem C19_provider_https_only : forall pc st ins,
  p_tls pc = true -> Forall (secure RP) (prun pc st ins).
Proof. exact provider_https_only. Qed.
Print Assumptions C19_provider_https_only.

(* a consumer with force_ssl_connect=True (repaired code: fixed = true): every history - including any number of
   stop_all (CStop), start_all again (CStart) and restart() (CRestart) against peers of either kind -, every device /
   hosted / subscription-manager address of any scheme, own or shared event sink, with or without alternative host
   name *)
Theorem C19_consumer_enforced_never_plain : forall cc i ins,
  c_mode cc = CEnforced -> c_ctor (c_mode cc) = Some i ->
  Forall (secure RC) (crun true cc (c_init i) ins).
Proof.
  intros cc i ins Hm Hc. rewrite (c_ctor_enforced cc i Hm Hc).
  apply forallb_secure, consumer_enforced. now left.
Qed.
Print Assumptions C19_consumer_enforced_never_plain.

(* the invariant behind it: is_ssl_connection - the only memory of force_ssl_connect=True - is still True after every
   history; a stop_all / restart that forgets it turns the consumer into an optional one *)
Theorem C19_consumer_enforced_stays_enforced : forall cc i ins,
  c_mode cc = CEnforced -> c_ctor (c_mode cc) = Some i ->
  isc (cfinal true cc (c_init i) ins) = Some true.
Proof. intros cc i ins Hm Hc. rewrite (c_ctor_enforced cc i Hm Hc). apply consumer_enforced. now left. Qed.
Print Assumptions C19_consumer_enforced_stays_enforced.

(* the code as found (fixed = false) violates the statement: an enforced consumer that is given a plaintext
   shared HTTP server places an http NotifyTo address in its Subscribe request *)
Theorem C19_consumer_shared_plain_sink_refuted :
  exists cc ins, c_mode cc = CEnforced /\
    In (Adv KNotifyTo RC (mkaddr Http HIp)) (crun false cc (c_init (Some true)) ins) /\
    ~ Forall (secure RC) (crun false cc (c_init (Some true)) ins).
Proof.
  exists (mkcconf CEnforced (Shared Http) false),
         [CStart (mkaddr Https HIp) true [mkaddr Https HIp]; CSubscribe (mkaddr Https HIp) true].
  split; [reflexivity|]. split.
  - vm_compute. tauto.
  - intros H. apply forallb_secure in H. vm_compute in H. discriminate.
Qed.
Print Assumptions C19_consumer_shared_plain_sink_refuted.

(* ... and only there: the code as found satisfies the statement for every other event sink *)
Theorem C19_consumer_enforced_partial : forall cc i ins,
  c_mode cc = CEnforced -> c_ctor (c_mode cc) = Some i -> c_srv cc <> Shared Http ->
  Forall (secure RC) (crun false cc (c_init i) ins).
Proof.
  intros cc i ins Hm Hc Hn. rewrite (c_ctor_enforced cc i Hm Hc).
  apply forallb_secure, consumer_enforced. now right.
Qed.
Print Assumptions C19_consumer_enforced_partial.

(* the inputs with which a foreign, hand-built peer drives the real provider in stream 'foreign' are such a history *)
Theorem C19_foreign_peer_secure : forall c,
  p_tls (f_pc c) = true -> Forall (secure RP) (prun (f_pc c) [] (foreign_inputs c)).
Proof. exact (fun c H => provider_https_only (f_pc c) [] (foreign_inputs c) H). Qed.
Print Assumptions C19_foreign_peer_secure.

(* the scenario runner that every check run compares with the real provider and consumer (start-up, any list of
   probe / GetMdib / operation / notification / Renew / GetStatus / Unsubscribe / Subscribe, either shutdown order,
   every configuration): its events respect the statement, so an agreeing implementation trace does too *)
Theorem C19_scenario_provider_secure : forall c,
  p_tls (s_pc c) = true -> Forall (secure RP) (snd (run_events c)).
Proof.
  intros c H. apply forallb_secure.
  apply (run_events_all (secure_b RP) (fun _ => True) c).
  - intros st i. now apply pstep_secure.
  - intros st i _. split; [exact I|].
    apply (forallb_impl (by_role RC)); [intros e; apply by_role_other_secure; discriminate | apply cstep_by_role].
  - intros; exact I.
Qed.
Print Assumptions C19_scenario_provider_secure.

Theorem C19_scenario_consumer_secure : forall c,
  c_mode (s_cc c) = CEnforced -> s_fixed c = true -> Forall (secure RC) (snd (run_events c)).
Proof. exact (fun c Hm Hf => scenario_consumer_secure c Hm (or_introl Hf)). Qed.
Print Assumptions C19_scenario_consumer_secure.

(* contexts built from a CA file require and verify the peer certificate in both directions *)
Theorem C19_ca_requires_peer_cert : forall cy pw c s,
  mk_ssl_contexts CaGiven cy pw = CtxOk c s ->
  requires_peer_cert c /\ requires_peer_cert s /\
  for_client c = true /\ for_client s = false /\ own_cert c = true /\ own_cert s = true.
Proof.
  intros cy pw c s H. destruct cy, pw; simpl in H; inversion H; subst; clear H;
    unfold requires_peer_cert; simpl; repeat split; reflexivity.
Qed.
Print Assumptions C19_ca_requires_peer_cert.

(* ... read from the caller's side: whenever a CA file is NAMED (present or not), the call either raises or returns
   contexts that both verify the peer; a named file that does not exist always raises (it is never "optional") *)
Theorem C19_named_ca_verifies_or_raises : forall ca cy pw,
  ca <> CaNone -> named_ca_ok (mk_ssl_contexts ca cy pw) /\ mk_ssl_contexts CaMissing cy pw = CtxNotFound.
Proof.
  intros ca cy pw Hn. split; [|now destruct cy].
  destruct ca; [contradiction | |]; destruct cy, pw; simpl; unfold requires_peer_cert; simpl; auto.
Qed.
Print Assumptions C19_named_ca_verifies_or_raises.

(* the finite argument space (CA not named / present / named but missing x cyphers none / given / file missing x
   password fits or not = 18), swept by computation *)
Theorem C19_ctx_argument_sweep : forall p, In p all_ctx_args -> ctx_args_ok p = true.
Proof. exact (proj1 (forallb_forall ctx_args_ok all_ctx_args) ctx_sweep). Qed.
Print Assumptions C19_ctx_argument_sweep.

(* a TLS consumer is handed an http device address and http hosted addresses: it still connects with its client
   context, serves its own sink through the server context and advertises https NotifyTo / EndTo *)
Example C19_consumer_nonvacuous :
  let cc := mkcconf CEnforced Own true in
  let ins := [CStart (mkaddr Http HAlt) true [mkaddr Http HIp]; CSubscribe (mkaddr Http HIp) true] in
  c_ctor (c_mode cc) = Some (Some true) /\
  crun true cc (c_init (Some true)) ins =
    [Create RC (Some CClient) HAlt; Conn RC true (Some CClient); Attempt RC true true HsOk;
     Create RC (Some CClient) HIp; Conn RC true (Some CClient); Attempt RC true true HsOk;
     Wrap CServer true;
     Create RC (Some CClient) HIp; Conn RC true (Some CClient); Attempt RC true true HsOk;
     Adv KNotifyTo RC (mkaddr Https HAlt); Adv KEndTo RC (mkaddr Https HAlt)].
Proof. split; reflexivity. Qed.

(* a TLS provider gets a Subscribe whose wsa:To / ReplyTo / From / Host / reference parameter all name http
   addresses of another netloc, http NotifyTo / EndTo addresses and a plaintext sink: the manager address stays
   https on its own netloc, it connects with its client context, gets an SSL error and sends nothing *)
Example C19_provider_nonvacuous :
  let pc := mkpconf true Own true in
  let hostile := mkpeerf (Some (mkaddr Http HOther)) true (Some (mkaddr Http HOther)) (Some (mkaddr Http HIp)) HOther
                         (Some (mkaddr Http HIp)) in
  prun pc [] [PStart; PSubscribe hostile (mkaddr Http HIp) (Some (mkaddr Http HIp)); PNotify 0 false; PEnd 0 true] =
    [Wrap PServer true; Adv KXaddr RP (mkaddr Https HAlt); Adv KBaseUrl RP (mkaddr Https HIp);
     Adv KSubMgr RP (mkaddr Https HIp);
     Create RP (Some PClient) HIp; Conn RP true (Some PClient); Attempt RP true false HsSslError;
     Create RP (Some PClient) HIp; Conn RP true (Some PClient); Attempt RP true true HsOk;
     Adv KSubMgrEnd RP (mkaddr Https HIp)].
Proof. reflexivity. Qed.

(* life cycle: TLS start, stop_all, then a plaintext peer answers at the device address (also via restart()): the
   enforced consumer gets ssl.SSLError both times and opens nothing in plaintext *)
Example C19_consumer_restart_nonvacuous :
  let cc := mkcconf CEnforced Own false in
  let x := mkaddr Https HIp in
  crun true cc (c_init (Some true)) [CStart x true []; CStop; CStart x false []; CRestart x false []] =
    [Create RC (Some CClient) HIp; Conn RC true (Some CClient); Attempt RC true true HsOk; Wrap CServer true;
     Create RC (Some CClient) HIp; Conn RC true (Some CClient); Attempt RC true false HsSslError;
     Create RC (Some CClient) HIp; Conn RC true (Some CClient); Attempt RC true false HsSslError].
Proof. reflexivity. Qed.

(* the hypothesis "enforced" is needed: with force_ssl_connect=False the consumer falls back to plaintext when the
   device port is not TLS (documented behaviour of SdcConsumer) *)
Example C19_optional_consumer_falls_back :
  In (Attempt RC false false HsOk)
     (crun true (mkcconf COptional Own false) (c_init None) [CStart (mkaddr Https HIp) false []]).
Proof. vm_compute. tauto. Qed.
