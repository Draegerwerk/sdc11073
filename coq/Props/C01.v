(* C01 -- Consumer MDIB is an exact mirror of the provider MDIB after any report history.
   Property theorems only (models: Mdib/Model.v provider, Mdib/Consumer.v consumer). *)
From Coq Require Import List ZArith Bool Lia.
From SDC Require Import Mdib.Model Mdib.Proofs Mdib.Proofs_Ctx Mdib.Consumer Mdib.Consumer_Proofs
  Mdib.Consumer_Descr_Proofs.
Import ListNotations.
Open Scope Z_scope.

(* one committed state transaction (metric / alert / component / operational / waveform): a consumer that
   mirrors the provider before, and processes the report of the commit, mirrors the provider after - same
   descriptors, states (values and version counters), context states and MdibVersion - and the
   notifications it raises name exactly the states the report changed *)
Theorem C01_mirror_step : forall k m t c,
  stx_ok k m t -> t_s t <> [] -> mirrors c m ->
  let m' := commit_states m t in
  let r := state_report m' (cm_seq c) (cm_inst c) t in
  mirrors (fst (receive c r)) m' /\
  snd (receive c r) = map (fun e => (N_STATE, fst e)) (t_s t).
Proof. exact mirror_step_state_tx. Qed.
Print Assumptions C01_mirror_step.

(* the same for one committed CONTEXT transaction (new, updated, associated, disassociated states; location change)
   as long as it reports everything it does (deleting a context state through the entity interface cannot be
   reported - that case is the known finding): mirror afterwards, notifications = exactly the reported states *)
Theorem C01_mirror_step_context : forall m t c,
  ctx_ok m t -> no_deletion t -> t_c t <> [] -> mirrors c m ->
  let m' := commit_states m t in
  let r := RCtx (mkVg (ver m') (cm_seq c) (cm_inst c)) (ctx_report_items t) in
  mirrors (fst (receive c r)) m' /\
  snd (receive c r) = map (fun e => (N_CTX, fst e)) (ctx_report_items t).
Proof. exact mirror_step_ctx_tx. Qed.
Print Assumptions C01_mirror_step_context.

(* every accepted context transaction body yields such an item list *)
Theorem C01_context_body_wellformed : forall m acts t,
  ctx_only acts -> fresh_ok m acts -> body 5 m empty_tx acts = Ok t -> ctx_ok m t.
Proof. exact (fun m acts t Ho Hf B => body_ctx_ok m acts empty_tx t Ho Hf (empty_ctx_ok m) B). Qed.
Print Assumptions C01_context_body_wellformed.

(* every finite history of state transactions (any kinds, classic or entity interface, rejected calls,
   aborts, empty transactions), reports processed in emission order: mirror after every prefix (the
   statement is for an arbitrary history, hence for each of its prefixes), SequenceId / InstanceId kept *)
Theorem C01_mirror_history : forall seq inst hist m c,
  Forall state_txn hist -> mirrors c m -> cm_seq c = seq -> cm_inst c = inst ->
  let '(m', c') := fold_left (pc_step seq inst) hist (m, c) in
  m' = exec m hist /\ mirrors c' m' /\ cm_seq c' = seq /\ cm_inst c' = inst.
Proof.
  intros seq inst hist. induction hist as [|x r IH]; intros m c Hf Hm Hs Hi; cbn [fold_left].
  - unfold exec. cbn. repeat split; try assumption; apply Hm.
  - inversion Hf as [|? ? Hx Hr]; subst.
    pose proof (pc_step_provider (cm_seq c) (cm_inst c) m c x Hx) as Hp.
    destruct (pc_step_mirrors m c x Hx Hm) as (Hm1 & Hs1 & Hi1).
    destruct (pc_step (cm_seq c) (cm_inst c) (m, c) x) as [m1 c1]. cbn [fst snd] in *. subst m1.
    exact (IH (exec1 m x) c1 Hr Hm1 Hs1 Hi1).
Qed.
Print Assumptions C01_mirror_history.

(* the side-by-side system really is the provider of C02 on its provider side *)
Theorem C01_provider_side : forall seq inst m c x,
  state_txn x -> fst (pc_step seq inst (m, c) x) = exec1 m x.
Proof. exact pc_step_provider. Qed.
Print Assumptions C01_provider_side.

Example C01_nonvacuous :
  let m := mkMdib (fun h => if Z.eqb h 7 then Some (mkDescr None K_METRIC 2 1) else None)
                  (fun h => if Z.eqb h 7 then Some (mkState 2 5 1) else None)
                  (fun _ => None) 10 (fun _ => None) (fun _ => None) (fun _ => None) [7] [] in
  let c := mirror_of m 1 1 in
  let '(m', c') := fold_left (pc_step 1 1) [(K_METRIC, @None nat, [AState 7 42]); (K_METRIC, Some 0%nat, [AState 7 9])] (m, c) in
  cm_ver c' = 11 /\ cm_states c' 7 = Some (mkState 2 6 42) /\ states m' 7 = Some (mkState 2 6 42).
Proof. vm_compute. repeat split. Qed.

(* The report of a committed descriptor transaction, [descr_report m t seq inst] (Mdib/Consumer_Descr_Proofs.v):
   one part per descriptor of TransactionResult.descr_updated (UPDATE), descr_created (CREATE), descr_deleted
   (DELETE), in this order, each with the states whose descriptor handle it is, MdibVersion = committed version.
   Well-formedness:
     pm_ok m    - provider lookups enumerate what they hold; no state / context state without descriptor
     cdom_ok c  - the same for the consumer lookups
     tree_ok m  - every parent handle of the provider MDIB refers to an existing descriptor
     dtx_ok m t - the shape of a descriptor transaction body (dshape, guaranteed by the API calls),
                  subtree_conflict m t = false (the check process_transaction makes before it changes anything:
                  nothing is created or updated inside a subtree that the transaction removes; a conflicting
                  transaction is refused with ApiUsageError), and the residue dpar_res m t: the parent handle of a
                  removed descriptor is not a descriptor that the same transaction creates - it follows from
                  tree_ok m (C01_descr_body_wellformed).  Removals may be nested in any order. *)
Theorem C01_mirror_step_descriptor : forall m t, pm_ok m -> dtx_ok m t -> forall c,
  t_d t <> [] -> mirrors c m -> cdom_ok c ->
  let m' := commit_descr m t in
  let r := descr_report m t (cm_seq c) (cm_inst c) in
  let c' := fst (receive c r) in
  mirrors c' m' /\ cdom_ok c' /\ cm_seq c' = cm_seq c /\ cm_inst c' = cm_inst c /\ pm_ok m' /\
  exists R, (forall y, In y R <-> In y (map fst (tx_deleted m t))) /\
    snd (receive c r) = map (fun e => (N_UPD, fst e)) (tx_updated m t) ++
                        map (fun e => (N_NEW, fst e)) (tx_created m t) ++ map (fun y => (N_DEL, y)) R.
Proof. exact mirror_step_descr. Qed.
Print Assumptions C01_mirror_step_descriptor.

(* the deleted descriptors are those below a removed handle *)
Theorem C01_descr_deleted_set : forall m t, pm_ok m -> dtx_ok m t -> forall y,
  In y (map fst (tx_deleted m t)) <->
  descrs m y <> None /\ exists r, In (r, None) (t_d t) /\ reachR (descrs m) y r.
Proof. exact tx_deleted_spec. Qed.
Print Assumptions C01_descr_deleted_set.

(* the episodic state reports that the provider sends after the description modification report for the same
   transaction (same MdibVersion, states already delivered) change nothing: mirror after ALL reports of the step *)
Theorem C01_mirror_step_descriptor_all : forall m t c,
  pm_ok m -> dtx_ok m t -> t_d t <> [] -> mirrors c m -> cdom_ok c ->
  let m' := commit_descr m t in
  let c' := receive_all c (descr_reports m t (cm_seq c) (cm_inst c)) in
  mirrors c' m' /\ cdom_ok c' /\ cm_seq c' = cm_seq c /\ cm_inst c' = cm_inst c /\ pm_ok m'.
Proof. exact mirror_step_descr_all. Qed.
Print Assumptions C01_mirror_step_descriptor_all.

(* every accepted body of add / update / remove descriptor and get_state calls that passes the two checks
   process_transaction makes before it changes anything (nothing created / updated inside a removed subtree, no
   descriptor created below a parent that neither exists nor is created) is well-formed on an MDIB whose parent
   handles exist, and creates no orphan; no obligation on the calls is left *)
Theorem C01_descr_body_wellformed : forall m acts t,
  descr_only acts -> body 6 m empty_tx acts = Ok t -> subtree_conflict m t || orphan_create m t = false ->
  tree_ok m -> dtx_ok m t /\ dpar_ok m t.
Proof. exact descr_body_wellformed. Qed.
Print Assumptions C01_descr_body_wellformed.

(* hence tree_ok is kept by every commit (dpar_ok is what the orphan check gives: [orphan_create_dpar_ok]) *)
Theorem C01_descr_tree_preserved : forall m t, pm_ok m -> dtx_ok m t ->
  t_d t <> [] -> tree_ok m -> dpar_ok m t -> tree_ok (commit_descr m t).
Proof. exact commit_descr_tree_ok. Qed.
Print Assumptions C01_descr_tree_preserved.

Theorem C01_orphan_check : forall m t, orphan_create m t = false -> dpar_ok m t.
Proof. exact orphan_create_dpar_ok. Qed.
Print Assumptions C01_orphan_check.

(* dtx_ok can be evaluated: boolean twin *)
Theorem C01_dtx_okb_sound : forall m t, dtx_okb m t = true -> dtx_ok m t.
Proof. exact dtx_okb_sound. Qed.
Print Assumptions C01_dtx_okb_sound.

(* every finite history of state transactions (any kind), context transactions without deletions through the
   entity interface, and descriptor transactions of ANY add / update / remove / get_state calls (txn_ok for kind 6 is
   just descr_only) - rejected calls, aborts, empty transactions, nested removals and transactions refused by the
   conflict / orphan checks included - with the reports processed in emission order: mirror after every prefix.
   sys_ok = mirrors /\ cdom_ok /\ pm_ok /\ tree_ok /\ sequence and instance id; it is required of the initial pair
   only and holds after every prefix *)
Theorem C01_mirror_history_all : forall seq inst hist m c,
  hist_ok m hist -> sys_ok seq inst m c ->
  let '(m', c') := fold_left (pc_step3 seq inst) hist (m, c) in
  m' = exec m hist /\ sys_ok seq inst m' c'.
Proof.
  intros seq inst hist. induction hist as [|x r IH]; intros m c Hh Hs; cbn [fold_left].
  - split; [reflexivity|exact Hs].
  - destruct Hh as [Hx Hr]. destruct (pc_step3_ok seq inst m c x Hx Hs) as [E S].
    destruct (pc_step3 seq inst (m, c) x) as [m1 c1]. cbn [fst snd] in *. subst m1.
    specialize (IH (exec1 m x) c1 Hr S).
    destruct (fold_left (pc_step3 seq inst) r (exec1 m x, c1)) as [m' c']. exact IH.
Qed.
Print Assumptions C01_mirror_history_all.

Example C01_descr_nonvacuous :
  let m := mkMdib (fun h => alist_get [(1, mkDescr None K_COMP 0 10); (2, mkDescr (Some 1) K_METRIC 0 11);
                                       (3, mkDescr (Some 1) K_METRIC 0 12); (5, mkDescr (Some 1) K_CTX 0 13);
                                       (6, mkDescr (Some 3) K_ALERT 0 14)] h)
                  (fun h => alist_get [(1, mkState 0 0 20); (2, mkState 0 3 21); (3, mkState 0 1 22); (6, mkState 0 0 23)] h)
                  (fun h => alist_get [(50, mkCState 5 0 2 2 (Some 1) None 30)] h)
                  7 (fun _ => None) (fun _ => None) (fun _ => None)
                  (map fst [(1, mkDescr None K_COMP 0 10); (2, mkDescr (Some 1) K_METRIC 0 11);
                            (3, mkDescr (Some 1) K_METRIC 0 12); (5, mkDescr (Some 1) K_CTX 0 13);
                            (6, mkDescr (Some 3) K_ALERT 0 14)])
                  (map fst [(50, mkCState 5 0 2 2 (Some 1) None 30)]) in
  (* parent 1 with children 2, 3 (which has child 6) and context descriptor 5.
     1st transaction: add 4 below 1, update 2 (and its state), remove 6 AND its parent 3 (nested removal), update
     context descriptor 5; then a metric transaction on the new descriptor, a context transaction, and a
     transaction that removes 2 and creates 7 below it - refused by the conflict check *)
  let acts := [ADAdd 4 (Some 1) K_METRIC 15 25; ADUpd 2 16; ADState 2 26; ADDel 6; ADDel 3; ADUpd 5 17] in
  let bad := [ADDel 2; ADAdd 7 (Some 2) K_ALERT 18 28] in
  let orphan := [ADAdd 8 (Some 99) K_METRIC 19 29] in     (* 99 neither exists nor is created: refused *)
  let hist := [(6, @None nat, acts); (K_METRIC, @None nat, [AState 4 42]); (5, @None nat, [ACtxGet 50 31 None]);
               (6, @None nat, bad); (6, @None nat, orphan)] in
  sys_ok 1 1 m (mirror_of m 1 1) /\ hist_ok m hist /\
  (exists t, body 6 m empty_tx acts = Ok t /\ dtx_okb m t = true /\ t_d t <> [] /\
     map fst (tx_updated m t) = [1; 2; 5] /\ map fst (tx_created m t) = [4] /\ map fst (tx_deleted m t) = [6; 3]) /\
  (exists t, body 6 (exec m (firstn 3 hist)) empty_tx bad = Ok t /\ subtree_conflict (exec m (firstn 3 hist)) t = true /\
     snd (transaction 6 None bad (exec m (firstn 3 hist))) = 3) /\
  (exists t, body 6 (exec m (firstn 4 hist)) empty_tx orphan = Ok t /\ orphan_create (exec m (firstn 4 hist)) t = true /\
     subtree_conflict (exec m (firstn 4 hist)) t = false /\ snd (transaction 6 None orphan (exec m (firstn 4 hist))) = 3) /\
  let '(m', c') := fold_left (pc_step3 1 1) hist (m, mirror_of m 1 1) in
  ver m' = 10 /\ cm_ver c' = 10 /\ descrs m' 3 = None /\ cm_descrs c' 3 = None /\ cm_states c' 6 = None /\
  cm_descrs c' 1 = Some (mkDescr None K_COMP 1 10) /\ cm_states c' 2 = Some (mkState 1 4 26) /\
  cm_descrs c' 7 = None /\ cm_descrs c' 8 = None /\ descrs m' 8 = None /\
  cm_states c' 4 = Some (mkState 0 1 42) /\ cm_cstates c' 50 = Some (mkCState 5 1 4 2 (Some 1) None 31).
Proof.
  cbv zeta.
  match goal with |- sys_ok _ _ ?m0 _ /\ _ => set (m := m0) end.
  assert (Hpm : pm_ok m) by (apply pm_ok_alists; reflexivity).
  split; [|split; [|split; [|split; [|split]]]].
  - split; [repeat split|]. split; [|split; [exact Hpm|split; [|split; reflexivity]]].
    + split; [exact (pm_dd _ Hpm)|exact (pm_cd _ Hpm)].
    + intros h d p Eh Ep. cbn [descrs m] in Eh |- *. apply alist_get_some_in in Eh. cbn in Eh.
      repeat (destruct Eh as [Eh|Eh]; [injection Eh as <- <-; cbn in Ep; try discriminate; injection Ep as <-; vm_compute; discriminate|]).
      contradiction.
  - split; [|split; [|split; [|split; [|split; [|exact I]]]]].
    + right. right. split; [reflexivity|]. refine (proj1 (Forall_forall descr_action _) _). repeat constructor.
    + left. split; [unfold K_METRIC; lia|]. intros a [<-|[]]. now exists 4, 42.
    + right. left. split; [reflexivity|]. split; [intros a [<-|[]]; exact I|]. split.
      * intros dh h assoc p [Ha|[]]. discriminate.
      * intros t B. vm_compute in B. injection B as <-. intros h [Hi|[]]. discriminate.
    + right. right. split; [reflexivity|]. refine (proj1 (Forall_forall descr_action _) _). repeat constructor.
    + right. right. split; [reflexivity|]. refine (proj1 (Forall_forall descr_action _) _). repeat constructor.
  - eexists. split; [vm_compute; reflexivity|]. vm_compute. repeat split; discriminate.
  - eexists. split; [vm_compute; reflexivity|]. vm_compute. split; reflexivity.
  - eexists. split; [vm_compute; reflexivity|]. vm_compute. repeat split.
  - vm_compute. repeat split.
Qed.
