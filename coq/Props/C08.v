(* C08 -- WS-Eventing subscriptions deliver exactly while alive and end cleanly.
   Property theorems only; most are instances of a lemma of Eventing/Proofs.v or Eventing/FanOutProofs.v
   stated there for every state (satisfying the invariant).
   The model is Eventing/Model.v (the repaired code, see fixes/C08_*.diff); time in ticks of 1/8 s.

   Vocabulary:  [final c ops] is the provider state after an arbitrary history [ops] of
   Subscribe / Renew / GetStatus / Unsubscribe / Advance / Report / Housekeeping / Stop operations
   (delivery outcomes are part of Report / Stop); [msgs_of (step ...)] are the messages handed to
   subscriber-facing SOAP clients by one operation; [live c s now] says that subscription [s] is not
   closed, not expired, not unsubscribed and below the delivery-failure limit; an entry of
   [st_table] is an accepted subscription that housekeeping / shutdown has not dropped. *)
From Coq Require Import List ZArith Bool String.
From SDC Require Import Common.ListFacts Eventing.Gen_Consts Eventing.Gen_Clauses Eventing.Model Eventing.Proofs Eventing.FanOut Eventing.FanOutProofs.
Import ListNotations.
Open Scope Z_scope.
Open Scope list_scope.

(* --- delivery: a notification is handed over iff the subscription is accepted and alive and matches --- *)
Theorem C08_delivery_iff : forall c ops a outs k b dest,
  let st := final c ops in
  In (Notify k b dest) (msgs_of (step c st (Report a outs))) <->
  b = a /\ exists s, In s (st_table st) /\ s_id s = k /\ dest = s_notify s /\
                     live c s (st_now st) /\ matches (s_filter s) a = true.
Proof. exact (fun c ops => delivery_iff c (final c ops)). Qed.
Print Assumptions C08_delivery_iff.

(* table entries are exactly the accepted Subscribe requests: same filter, NotifyTo, EndTo; the id was
   returned in the SubscribeResponse *)
Theorem C08_table_entries_were_accepted : forall c ops s, In s (st_table (final c ops)) ->
  exists pre q post cs,
    ops = pre ++ Subscribe q :: post /\ accepts c q = true /\
    same_static (new_sub c (final c pre) q) s /\
    resp_of (step c (final c pre) (Subscribe q)) = RSub (s_id s) cs.
Proof.
  intros c ops. induction ops as [|o ops IH] using rev_ind; intros s H.
  - simpl in H. contradiction.
  - rewrite final_snoc in H. apply step_table_In in H as [[s0 [H0 Ev]]|[q [-> [A ->]]]].
    + destruct (IH _ H0) as [pre [q [post [cs [E [A [S0 R]]]]]]]. apply evolves_static in Ev.
      exists pre, q, (post ++ [o]), cs. rewrite E, <- app_assoc. split; [reflexivity|]. split; [exact A|].
      split; [exact (same_static_trans _ _ _ S0 Ev)|]. rewrite (same_static_id _ _ Ev). exact R.
    + exists ops, q, [], (rem_cs (new_sub c (final c ops) q) (st_now (final c ops))).
      split; [reflexivity|]. split; [exact A|]. split; [apply same_static_refl|].
      unfold resp_of. simpl. rewrite A. reflexivity.
Qed.
Print Assumptions C08_table_entries_were_accepted.

(* nothing but a report hands out notifications, nothing but shutdown hands out SubscriptionEnd *)
Theorem C08_only_report_and_stop_send : forall c ops o,
  match o with Report _ _ | Stop _ _ => True | _ => msgs_of (step c (final c ops) o) = [] end.
Proof. exact (fun c ops => only_report_and_stop_send c (final c ops)). Qed.
Print Assumptions C08_only_report_and_stop_send.

Theorem C08_report_hands_no_end : forall c ops a outs k d e,
  ~ In (End k d e) (msgs_of (step c (final c ops) (Report a outs))).
Proof. exact (fun c ops => report_hands_no_end c (final c ops)). Qed.
Print Assumptions C08_report_hands_no_end.

(* housekeeping never drops a live subscription (what it does drop: housekeeping_exact in Eventing/Proofs.v) *)
Theorem C08_housekeeping_keeps_live : forall c ops s,
  0 <= c_grace c -> In s (st_table (final c ops)) -> live c s (st_now (final c ops)) ->
  In s (st_table (fst (step c (final c ops) Housekeeping))).
Proof. exact (fun c ops s _ => housekeeping_keeps_live c (final c ops) s). Qed.
Print Assumptions C08_housekeeping_keeps_live.

(* ... and nothing but housekeeping and shutdown removes an entry (its static part is kept) *)
Theorem C08_only_housekeeping_and_stop_drop : forall c ops o s,
  In s (st_table (final c ops)) ->
  match o with
  | Housekeeping | Stop _ _ => True
  | _ => exists s', In s' (st_table (fst (step c (final c ops) o))) /\ same_static s s'
  end.
Proof. exact (fun c ops => step_keeps_entries c (final c ops)). Qed.
Print Assumptions C08_only_housekeeping_and_stop_drop.

(* --- the filter: on the SDC action URIs suffix matching IS membership --- *)
Theorem C08_filter_is_membership : forall f a,
  incl f sdc_actions -> In a sdc_actions -> (matches f a = true <-> In a f).
Proof. exact (matches_iff_In sdc_actions sdc_actions_suffix_free). Qed.
Print Assumptions C08_filter_is_membership.

(* --- granted expiry --- *)
Theorem C08_granted_bound : forall c ops q k cs,
  let st := final c ops in
  resp_of (step c st (Subscribe q)) = RSub k cs ->
  exists s, In s (st_table (fst (step c st (Subscribe q)))) /\ s_id s = k /\ k = st_next st /\
    s_started s = st_now st /\ s_expire s = grant c (q_expires q) /\
    s_expire s <= c_maxd c /\ (forall d, q_expires q = Some d -> s_expire s <= d) /\
    (q_expires q = None -> s_expire s = c_maxd c) /\
    cs = Z.max (round2 (s_expire s)) 0 /\
    cs <= Z.max (round2 (c_maxd c)) 0 /\ (forall d, q_expires q = Some d -> cs <= Z.max (round2 d) 0).
Proof.
  intros c ops q k cs st H. destruct (subscribe_entry c st q k cs H) as (-> & -> & Hin).
  destruct (grant_spec c (q_expires q)) as (G1 & G2 & G3). destruct (granted_cs_bounds c (q_expires q)) as [B1 B2].
  exists (new_sub c st q). repeat split; assumption.
Qed.
Print Assumptions C08_granted_bound.

Theorem C08_renew_granted_bound : forall c ops i e cs,
  let st := final c ops in
  resp_of (step c st (Renew i e)) = RRenew cs ->
  exists k s0 s, i = Id k /\ In s0 (st_table st) /\ s_id s0 = k /\ s_unsub s0 = None /\
    In s (st_table (fst (step c st (Renew i e)))) /\ same_static s0 s /\
    s_started s = st_now st /\ s_expire s = grant c e /\
    s_expire s <= c_maxd c /\ (forall d, e = Some d -> s_expire s <= d) /\
    (e = None -> s_expire s = c_maxd c) /\
    cs = Z.max (round2 (s_expire s)) 0 /\
    cs <= Z.max (round2 (c_maxd c)) 0 /\ (forall d, e = Some d -> cs <= Z.max (round2 d) 0).
Proof.
  intros c ops i e cs st H. destruct (renew_entry c st i e cs H) as (-> & s0 & -> & Hs0 & U & Hin).
  destruct (grant_spec c e) as (G1 & G2 & G3). destruct (granted_cs_bounds c e) as [B1 B2].
  exists (s_id s0), s0, (set_grant s0 (st_now st) (grant c e)). repeat split; assumption.
Qed.
Print Assumptions C08_renew_granted_bound.

(* GetStatus reports the rounded remainder of the granted expiry and changes nothing *)
Theorem C08_status_consistent : forall c ops i cs,
  let st := final c ops in
  resp_of (step c st (GetStatus i)) = RStat cs ->
  fst (step c st (GetStatus i)) = st /\
  exists k s, i = Id k /\ In s (st_table st) /\ s_id s = k /\ s_unsub s = None /\
    cs = Z.max (round2 (s_expire s - (st_now st - s_started s))) 0.
Proof. exact (fun c ops => status_consistent c (final c ops)). Qed.
Print Assumptions C08_status_consistent.

(* ... and the grant of an entry is changed by nothing but a successful Renew naming it *)
Theorem C08_grant_stable : forall c ops o s s',
  let st := final c ops in
  In s (st_table st) -> In s' (st_table (fst (step c st o))) -> s_id s' = s_id s ->
  (s_started s' = s_started s /\ s_expire s' = s_expire s) \/
  (exists e cs, o = Renew (Id (s_id s)) e /\ resp_of (step c st o) = RRenew cs).
Proof. exact (fun c ops o s s' => grant_stable c (final c ops) o s s' (Inv_final c ops)). Qed.
Print Assumptions C08_grant_stable.

(* the reported remainder never exceeds the grant *)
Theorem C08_remaining_le_grant : forall c ops s,
  let st := final c ops in
  In s (st_table st) -> rem_cs s (st_now st) <= Z.max (round2 (s_expire s)) 0 /\ s_expire s <= c_maxd c.
Proof.
  intros c ops s st H. pose proof (inv_wf _ _ (Inv_final c ops) s H) as W.
  split; [apply rem_cs_le_grant; exact (wf_started _ _ _ W)|exact (wf_expire _ _ _ W)].
Qed.
Print Assumptions C08_remaining_le_grant.

(* --- delivery failures: EVERY kind counts ---------------------------------------------------------------
   [outcome] lists the kinds of failure an exchange with a subscriber can end in (HTTP error status / SOAP
   fault, refused connection, connect time-out, socket / asyncio time-out, connection reset, an answer that
   is not XML); the model treats each of them, for the sync and the async manager, as one failed delivery: *)
Theorem C08_every_failure_kind_counts : forall c ops a outs s,
  let st := final c ops in
  In s (st_table st) -> live c s (st_now st) -> matches (s_filter s) a = true ->
  outcome_at outs (s_notify s) <> OOk ->
  In (set_errors s (s_errors s + 1)) (st_table (fst (step c st (Report a outs)))).
Proof. exact (fun c ops => failure_counts c (final c ops)). Qed.
Print Assumptions C08_every_failure_kind_counts.

Theorem C08_only_an_answered_exchange_is_a_delivery : forall sync d o,
  snd (exchange_state sync d o) = true -> o = OOk.
Proof.
  intros sync d o H. destruct o; try reflexivity;
    rewrite exchange_state_fail in H by discriminate; discriminate.
Qed.
Print Assumptions C08_only_an_answered_exchange_is_a_delivery.

Theorem C08_over_the_limit_nothing_is_delivered : forall c ops a outs s k b dest,
  let st := final c ops in
  In s (st_table st) -> c_maxerr c <= s_errors s -> s_id s = k ->
  ~ In (Notify k b dest) (msgs_of (step c st (Report a outs))).
Proof.
  intros c ops a outs s k b dest st Hs E Hk H.
  apply (C08_delivery_iff c ops a outs k b dest) in H. destruct H as [_ [s' [Hs' [Hk' [_ [L _]]]]]].
  rewrite (NoDup_map_inj s_id _ s' s (inv_nodup _ _ (Inv_final c ops)) Hs' Hs) in L by congruence.
  exact (over_limit_not_live c s _ E L).
Qed.
Print Assumptions C08_over_the_limit_nothing_is_delivered.

(* the except clauses of the send paths as they are in the source today (regenerated on every run by
   harness/impl/gen_eventing_clauses.py): (function, exception classes, counts a notify error, marks a
   connection error, re-raises).  A new, removed or changed clause stops this proof; the correspondence
   streams inject an outcome that reaches every clause of the counting functions. *)
Theorem C08_send_path_clauses_as_modelled : send_path_clauses = [
  ("BicepsSubscription.send_notification_report", "HTTPReturnCodeError", true, false, true);
  ("BicepsSubscription.send_notification_report", "Exception", true, true, true);
  ("SubscriptionsManagerBase._send_notification_report", "ConnectionRefusedError", false, false, false);
  ("SubscriptionsManagerBase._send_notification_report", "HTTPReturnCodeError", false, false, false);
  ("SubscriptionsManagerBase._send_notification_report", "NotConnected", false, false, false);
  ("SubscriptionsManagerBase._send_notification_report", "TimeoutError", false, false, false);
  ("SubscriptionsManagerBase._send_notification_report", "DocumentInvalid", false, false, true);
  ("SubscriptionsManagerBase._send_notification_report", "XMLSyntaxError", false, false, false);
  ("SubscriptionsManagerBase._send_notification_report", "Exception", false, false, true);
  ("SubscriptionBase.send_notification_end_message", "Exception", false, false, false);
  ("BicepsSubscriptionAsync.async_send_notification_report", "HTTPReturnCodeError", true, false, true);
  ("BicepsSubscriptionAsync.async_send_notification_report", "TimeoutError", true, true, true);
  ("BicepsSubscriptionAsync.async_send_notification_report", "Exception", true, true, true);
  ("BICEPSSubscriptionsManagerBaseAsync._async_send_notification_report", "HTTPReturnCodeError", false, false, false);
  ("BICEPSSubscriptionsManagerBaseAsync._async_send_notification_report",
   "TimeoutError | ClientConnectionError | ClientConnectorError | ServerConnectionError | TimeoutError", false, false, false);
  ("BICEPSSubscriptionsManagerBaseAsync._async_send_notification_report", "DocumentInvalid", false, false, true);
  ("BICEPSSubscriptionsManagerBaseAsync._async_send_notification_report", "Exception", false, false, true);
  ("BicepsSubscriptionAsync.async_send_notification_end_message", "ClientConnectorError", false, false, false);
  ("BicepsSubscriptionAsync.async_send_notification_end_message", "Exception", false, false, false)
]%string.
Proof. reflexivity. Qed.
Print Assumptions C08_send_path_clauses_as_modelled.

(* whatever the table looks like: every except clause of the two functions that count delivery failures
   counts one, and the last clause of each catches every exception; the sync manager's per-receiver wrapper
   goes on with the next receiver after what one SUBSCRIBER can cause (refused / not connected / time-out /
   HTTP error status / an answer that is not XML) and ends the fan-out, passing the exception to the sending
   thread, for what is wrong with the REPORT (invalid document) or unknown (final catch-all) *)
Definition counting_fn (f : string) : bool :=
  String.eqb f "BicepsSubscription.send_notification_report" ||
  String.eqb f "BicepsSubscriptionAsync.async_send_notification_report".

Theorem C08_every_send_path_clause_counts :
  forallb (fun cl => let '(f, _, counts, _, _) := cl in implb (counting_fn f) counts) send_path_clauses = true /\
  forallb (fun f => match rev (filter (fun cl => let '(g, _, _, _, _) := cl in String.eqb g f) send_path_clauses) with
                    | (_, e, _, _, _) :: _ => String.eqb e "Exception"
                    | [] => false
                    end)
          ["BicepsSubscription.send_notification_report"; "BicepsSubscriptionAsync.async_send_notification_report"]%string = true /\
  forallb (fun cl => let '(f, e, _, _, reraises) := cl in
                     implb (String.eqb f "SubscriptionsManagerBase._send_notification_report")
                           (Bool.eqb reraises (String.eqb e "DocumentInvalid" || String.eqb e "Exception")))
          send_path_clauses = true /\
  forallb (fun e => existsb (fun cl => let '(f, e', _, _, reraises) := cl in
                                       String.eqb f "SubscriptionsManagerBase._send_notification_report" &&
                                       String.eqb e' e && negb reraises) send_path_clauses)
          ["ConnectionRefusedError"; "HTTPReturnCodeError"; "NotConnected"; "TimeoutError"; "XMLSyntaxError"]%string = true.
Proof. vm_compute. repeat split; reflexivity. Qed.
Print Assumptions C08_every_send_path_clause_counts.

(* --- unknown subscriptions: fault, no message, state unchanged --- *)
Theorem C08_unknown_fault_noop : forall c ops i,
  let st := final c ops in
  ~ known st i ->
  (forall e, step c st (Renew i e) = (st, (RFault, []))) /\
  step c st (GetStatus i) = (st, (RFault, [])) /\
  step c st (Unsubscribe i) = (st, (RFault, [])).
Proof. exact (fun c ops => unknown_fault_noop c (final c ops)). Qed.
Print Assumptions C08_unknown_fault_noop.

Theorem C08_known_is_served : forall c ops i,
  let st := final c ops in
  known st i ->
  (forall e, exists cs, resp_of (step c st (Renew i e)) = RRenew cs) /\
  (exists cs, resp_of (step c st (GetStatus i)) = RStat cs) /\
  resp_of (step c st (Unsubscribe i)) = RUnsub.
Proof. exact (fun c ops i => known_served c (final c ops) i (inv_nodup _ _ (Inv_final c ops))). Qed.
Print Assumptions C08_known_is_served.

(* "no longer known": after a successful Unsubscribe the id is unknown, and an id that is unknown
   (never issued ids excepted) stays unknown whatever happens next *)
Theorem C08_unsubscribed_is_unknown : forall c ops i,
  let st := final c ops in
  resp_of (step c st (Unsubscribe i)) = RUnsub -> ~ known (fst (step c st (Unsubscribe i))) i.
Proof. exact (fun c ops i => unsubscribed_unknown c (final c ops) i (inv_nodup _ _ (Inv_final c ops))). Qed.
Print Assumptions C08_unsubscribed_is_unknown.

Theorem C08_unknown_for_ever : forall c ops ops' k,
  let st := final c ops in
  k < st_next st -> ~ known st (Id k) -> ~ known (fst (run c st ops')) (Id k).
Proof. exact (fun c ops ops' k => unknown_forever c ops' (final c ops) k (Inv_final c ops)). Qed.
Print Assumptions C08_unknown_for_ever.

(* --- shutdown: exactly one SubscriptionEnd per live subscription, to EndTo if given else NotifyTo --- *)
Theorem C08_stop_exactly_one_end : forall c ops outs,
  let st := final c ops in
  let ms := msgs_of (step c st (Stop true outs)) in
  (forall s, In s (st_table st) -> live c s (st_now st) ->
     count_occ msg_eq_dec ms (End (s_id s) (fst (end_dest s)) (snd (end_dest s))) = 1%nat /\
     (forall d e, In (End (s_id s) d e) ms -> (d, e) = end_dest s)) /\
  (forall k d e, In (End k d e) ms ->
     exists s, In s (st_table st) /\ s_id s = k /\ live c s (st_now st) /\ (d, e) = end_dest s) /\
  (forall k a d, ~ In (Notify k a d) ms) /\
  msgs_of (step c st (Stop false outs)) = [] /\
  st_table (fst (step c st (Stop true outs))) = [] /\ st_table (fst (step c st (Stop false outs))) = [].
Proof. exact (fun c ops outs => stop_exactly_one_end c (final c ops) outs (inv_nodup _ _ (Inv_final c ops))). Qed.
Print Assumptions C08_stop_exactly_one_end.

Theorem C08_end_goes_to_endto_else_notifyto : forall s,
  (forall a, s_end s = Some a -> end_dest s = (a, true)) /\
  (s_end s = None -> end_dest s = (s_notify s, false)).
Proof. intros s. unfold end_dest. split; [intros a ->|intros ->]; reflexivity. Qed.
Print Assumptions C08_end_goes_to_endto_else_notifyto.

(* --- the constants found in the source today (regenerated on every run) --- *)
Theorem C08_default_cfg_wf : 0 < c_maxerr default_cfg /\ 0 < c_maxd default_cfg /\ 0 <= c_grace default_cfg.
Proof. vm_compute. repeat split; congruence. Qed.
Print Assumptions C08_default_cfg_wf.

(* with them, a subscription accepted with a positive (or no) requested duration is live at once *)
Theorem C08_fresh_subscription_live : forall ops q,
  let st := final default_cfg ops in
  accepts default_cfg q = true -> (forall d, q_expires q = Some d -> 0 < d) ->
  live default_cfg (new_sub default_cfg st q) (st_now st).
Proof.
  exact (fun ops q _ => fresh_subscription_live default_cfg (final default_cfg ops) q
                          (proj1 C08_default_cfg_wf) (proj1 (proj2 C08_default_cfg_wf))).
Qed.
Print Assumptions C08_fresh_subscription_live.

(* the boolean twin used by the harness to search the model agrees with the theorems *)
Theorem C08_check_twin_holds : forall c ops, check_C08 c init ops = true.
Proof. exact (fun c ops => check_C08_holds c ops init). Qed.
Print Assumptions C08_check_twin_holds.

(* --- the fan-out of one report, fine-grained (Eventing/FanOut.v) ---------------------------------------------
   send_to_subscribers is not atomic: the receiver list is built once, then the receivers are served one after
   the other (blocking posts) while other threads subscribe, renew, unsubscribe, the clock runs, housekeeping
   and other senders work.  [xfinal c xs] is the provider state after a history [xs] of plain operations and
   such fine-grained reports ([Fan a outs order inter]: [order] = iteration order of the subscription table,
   [inter] = for the n-th hand-off of the report the operations performed while that delivery is in progress;
   with an async manager the operations that need the table lock wait until the fan-out is over).
   [fan_visits] lists, for every receiver in turn, the provider state at the moment it is served
   ([v_st], the send time) and whether a notification was handed to its client ([v_hand]). *)

(* every entry of the receiver list is served exactly once, in order; the list holds the ids of the table
   entries whose filter matches, taken when the fan-out starts (a subscription accepted later is not in it) *)
Theorem C08_fanout_serves_each_receiver_once : forall c xs a outs order inter,
  let st := xfinal c xs in
  map v_k (fan_visits c st a outs order inter) = receivers st a order /\
  forall k, In k (receivers st a order) <->
            In k order /\ exists s, In s (st_table st) /\ s_id s = k /\ matches (s_filter s) a = true.
Proof.
  intros c xs a outs order inter st. split.
  - apply fan_keys.
  - intros k. apply receivers_spec. exact (inv_nodup _ _ (Inv_xfinal c xs)).
Qed.
Print Assumptions C08_fanout_serves_each_receiver_once.

(* delivery iff alive AT SEND TIME: a receiver is handed the notification iff, at the moment its turn comes,
   it is in the table, not closed, not expired, not unsubscribed and below the failure limit -- whatever
   happened while the earlier receivers of the same report were served *)
Theorem C08_fanout_delivery_iff_alive_at_send_time : forall c xs a outs order inter v,
  let st := xfinal c xs in
  In v (fan_visits c st a outs order inter) ->
  ((exists h, v_hand v = Some h) <->
   exists s, In s (st_table (v_st v)) /\ s_id s = v_k v /\ live c s (st_now (v_st v))) /\
  (forall m obs, v_hand v = Some (m, obs) ->
   exists s, In s (st_table (v_st v)) /\ s_id s = v_k v /\ m = Notify (v_k v) a (s_notify s)).
Proof.
  intros c xs a outs order inter v st Hv. destruct (fan_visits_In _ _ _ _ _ _ _ _ (Inv_xfinal c xs) Hv) as [_ V].
  unfold visit_ok in V. destruct (v_hand v) as [[m obs]|].
  - destruct V as [s [Hs [Hk [L Em]]]]. split.
    + split; [intros _; exists s; auto|intros _; eauto].
    + intros m0 obs0 E. inversion E; subst. exists s. auto.
  - split.
    + split; [intros [h E]; discriminate|]. intros [s [Hs [Hk L]]]. exfalso. exact (V s Hs Hk L).
    + intros m0 obs0 E. discriminate.
Qed.
Print Assumptions C08_fanout_delivery_iff_alive_at_send_time.

(* the sync manager: an Unsubscribe of j handled while an earlier receiver is being served (answered with
   UnsubscribeResponse, or with a fault because j was unknown already) keeps the report from every later
   receiver entry j of this fan-out *)
Theorem C08_fanout_unsubscribe_during_delivery : forall c xs a outs order inter j pre v post,
  let st := xfinal c xs in
  c_sync c = true -> j < st_next st ->
  fan_visits c st a outs order inter = pre ++ v :: post ->
  (exists h, v_hand v = Some h) ->
  In (Unsubscribe (Id j)) (nth (List.length (hands_of pre)) inter []) ->
  Forall (fun v' => v_k v' = j -> v_hand v' = None) post.
Proof.
  exact (fun c xs a outs order inter j pre v post S L E =>
           fan_unsub_blocks c j a outs (receivers (xfinal c xs) a order) inter (xfinal c xs) [] pre v post
                            (Inv_xfinal c xs) S L E).
Qed.
Print Assumptions C08_fanout_unsubscribe_during_delivery.

(* an id that is not (or no longer) known when the fan-out starts is not known at any send time of it, is
   handed nothing, and is still unknown when the fan-out and the waiting operations are through *)
Theorem C08_fanout_unknown_stays_unknown : forall c xs a outs order inter j,
  let st := xfinal c xs in
  j < st_next st -> ~ known st (Id j) ->
  (forall v, In v (fan_visits c st a outs order inter) ->
     ~ known (v_st v) (Id j) /\ (v_k v = j -> v_hand v = None)) /\
  ~ known (fst (fan_step c st a outs order inter)) (Id j).
Proof.
  intros c xs a outs order inter j st L NK.
  assert (gone c j st) as G by (split; [apply Inv_xfinal|exact L|exact NK]).
  pose proof (fan_gone c j a outs (receivers st a order) inter st [] G) as [G1 FG].
  pose proof (fan_gone_blocks c j a outs (receivers st a order) inter st [] G) as FB.
  rewrite Forall_forall in FG, FB. split.
  - intros v Hv. split; [apply (FG _ Hv)|now apply FB].
  - unfold fan_step. destruct (fan c a outs (receivers st a order) inter st []) as [[st1 vs] d]. simpl in G1.
    pose proof (gone_unknown _ _ _ (gone_run c j d st1 G1)) as F. destruct (run c st1 d) as [st2 dobs]. exact F.
Qed.
Print Assumptions C08_fanout_unknown_stays_unknown.

(* the atomic [Report] step of the coarse model is the special case "nothing interleaved, receivers in table
   order" of the fine-grained one: same state afterwards, same messages *)
Theorem C08_fanout_without_interleaving_is_the_atomic_report : forall c xs a outs,
  let st := xfinal c xs in
  let order := map s_id (st_table st) in
  fst (fan_step c st a outs order []) = fst (step c st (Report a outs)) /\
  map fst (fst (snd (fan_step c st a outs order []))) = msgs_of (step c st (Report a outs)) /\
  snd (snd (fan_step c st a outs order [])) = [].
Proof. exact (fun c xs a outs => fan_step_plain c (xfinal c xs) a outs (inv_nodup _ _ (Inv_xfinal c xs))). Qed.
Print Assumptions C08_fanout_without_interleaving_is_the_atomic_report.

(* the theorems about single operations hold after fine-grained histories as well: they are proved for every
   state satisfying the invariant, and [xfinal] satisfies it.  A fine-grained history without [Fan] is a coarse
   one; delivery and shutdown are restated for [xfinal] below *)
Theorem C08_fine_histories_extend_coarse : forall c ops, xfinal c (map Plain ops) = final c ops.
Proof.
  intros c ops. unfold xfinal, xfinal_from, final. rewrite run_fst. generalize init.
  induction ops as [|o r IH]; intros st; simpl; [reflexivity|apply IH].
Qed.
Print Assumptions C08_fine_histories_extend_coarse.

Theorem C08_delivery_iff_after_fine_history : forall c xs a outs k b dest,
  let st := xfinal c xs in
  In (Notify k b dest) (msgs_of (step c st (Report a outs))) <->
  b = a /\ exists s, In s (st_table st) /\ s_id s = k /\ dest = s_notify s /\
                     live c s (st_now st) /\ matches (s_filter s) a = true.
Proof. exact (fun c xs => delivery_iff c (xfinal c xs)). Qed.
Print Assumptions C08_delivery_iff_after_fine_history.

Theorem C08_stop_exactly_one_end_after_fine_history : forall c xs outs,
  let st := xfinal c xs in
  let ms := msgs_of (step c st (Stop true outs)) in
  (forall s, In s (st_table st) -> live c s (st_now st) ->
     count_occ msg_eq_dec ms (End (s_id s) (fst (end_dest s)) (snd (end_dest s))) = 1%nat /\
     (forall d e, In (End (s_id s) d e) ms -> (d, e) = end_dest s)) /\
  (forall k d e, In (End k d e) ms ->
     exists s, In s (st_table st) /\ s_id s = k /\ live c s (st_now st) /\ (d, e) = end_dest s) /\
  (forall k a d, ~ In (Notify k a d) ms) /\
  msgs_of (step c st (Stop false outs)) = [] /\
  st_table (fst (step c st (Stop true outs))) = [] /\ st_table (fst (step c st (Stop false outs))) = [].
Proof. exact (fun c xs outs => stop_exactly_one_end c (xfinal c xs) outs (inv_nodup _ _ (Inv_xfinal c xs))). Qed.
Print Assumptions C08_stop_exactly_one_end_after_fine_history.

Theorem C08_fine_check_twin_holds : forall c xs, xcheck c init xs = true.
Proof. exact (fun c xs => xcheck_holds c xs init (Inv_init c)). Qed.
Print Assumptions C08_fine_check_twin_holds.

(* non-vacuity: two subscribers of the same report; the second one's Unsubscribe is handled while the first
   one is being served: with the table order 0,1 subscriber 1 gets nothing, with the order 1,0 it had been served
   already; the clock passing subscriber 0's expiry during the delivery to 1 silences 0 *)
Example C08_fanout_nonvacuous :
  let q0 := mkReq true true (Some [act 2]) (Some 81) 0 None in
  let q1 := mkReq true true (Some [act 2]) None 1 None in
  let st := final default_cfg [Subscribe q0; Subscribe q1] in
  snd (fan_step default_cfg st (act 2) [OOk; OOk] [0; 1] [[Unsubscribe (Id 1)]])
    = ([(Notify 0 (act 2) 0, [(RUnsub, [])])], []) /\
  snd (fan_step default_cfg st (act 2) [OOk; OOk] [1; 0] [[Unsubscribe (Id 1)]])
    = ([(Notify 1 (act 2) 1, [(RUnsub, [])]); (Notify 0 (act 2) 0, [])], []) /\
  snd (fan_step default_cfg st (act 2) [OOk; OOk] [1; 0] [[Advance 81]])
    = ([(Notify 1 (act 2) 1, [(RNone, [])])], []) /\
  msgs_of (step default_cfg (fst (fan_step default_cfg st (act 2) [OOk; OOk] [0; 1] [[Unsubscribe (Id 1)]]))
                (Stop true [])) = [End 0 0 false].
Proof. vm_compute. repeat split; reflexivity. Qed.

(* non-vacuity: two subscribers; one unsubscribes, a report reaches only the other; a delivery
   failure silences it; shutdown then ends nobody; and an earlier shutdown ends exactly the live one *)
Example C08_delivery_nonvacuous :
  let q0 := mkReq true true (Some [act 2]) (Some 81) 0 (Some 1) in
  let q1 := mkReq true true (Some [act 2; act 4]) None 1 None in
  let ops := [Subscribe q0; Subscribe q1; Unsubscribe (Id 1); Advance 8] in
  map (fun r => msgs_of r) [step default_cfg (final default_cfg ops) (Report (act 2) [OOk; OOk])]
    = [[Notify 0 (act 2) 0]] /\
  msgs_of (step default_cfg (final default_cfg ops) (Stop true [])) = [End 0 1 true] /\
  msgs_of (step default_cfg (final default_cfg (ops ++ [Report (act 2) [OTimeout]]))
                (Report (act 2) [OOk])) = [] /\
  resp_of (step default_cfg (final default_cfg ops) (GetStatus (Id 0))) = RStat 912 /\
  resp_of (step default_cfg (final default_cfg ops) (GetStatus (Id 1))) = RFault.
Proof. vm_compute. repeat split; reflexivity. Qed.
