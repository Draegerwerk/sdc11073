(* C15 -- Discovery datagrams are retransmitted within the SOAP-over-UDP time envelope.
   Property theorems; the lemmas they rest on are in Wsd/Udp_Proofs.v, Kinds_Proofs.v and SendLoop_Proofs.v. *)
From Coq Require Import List ZArith.
From Coq Require Import Permutation.
From SDC Require Import Wsd.Udp Wsd.Udp_Proofs Wsd.Gen_Params Wsd.Gen_Kinds Wsd.Kinds Wsd.Kinds_Proofs.
From SDC Require Import Common.ListFacts Wsd.SendLoop Wsd.SendLoop_Proofs.
Import ListNotations.
Open Scope Z_scope.

(* every outcome of the two random draws, any well-formed parameter set *)
Theorem C15_envelope : forall p d0 g,
  wf p -> 0 <= d0 <= init_ms p -> min_ms p <= g < max_ms p -> envelope p d0 g.
Proof. exact envelope_holds. Qed.
Print Assumptions C15_envelope.

(* the parameter sets found in the source today are well-formed (regenerated on every run) *)
Theorem C15_unicast_params_wf : wf unicast_params.
Proof. exact (wfb_wf unicast_params eq_refl). Qed.
Print Assumptions C15_unicast_params_wf.

Theorem C15_multicast_params_wf : wf multicast_params.
Proof. exact (wfb_wf multicast_params eq_refl). Qed.
Print Assumptions C15_multicast_params_wf.

Theorem C15_envelope_unicast : forall d0 g,
  0 <= d0 <= init_ms unicast_params -> min_ms unicast_params <= g < max_ms unicast_params ->
  envelope unicast_params d0 g.
Proof. exact (fun d0 g => envelope_holds unicast_params d0 g C15_unicast_params_wf). Qed.
Print Assumptions C15_envelope_unicast.

Theorem C15_envelope_multicast : forall d0 g,
  0 <= d0 <= init_ms multicast_params -> min_ms multicast_params <= g < max_ms multicast_params ->
  envelope multicast_params d0 g.
Proof. exact (fun d0 g => envelope_holds multicast_params d0 g C15_multicast_params_wf). Qed.
Print Assumptions C15_envelope_multicast.

(* WHICH parameter set (and which destination) a message kind uses is part of the property: the table traced
   from the real WSDiscovery object (Gen_Kinds.v, regenerated on every run) is the demanded one -- Hello, Bye,
   Probe, Resolve: multicast group + multicast set; ProbeMatches, ResolveMatches: requester + unicast set *)
Theorem C15_kind_parameter_set : forall k,
  impl_kind_pset k = (if is_multicast_kind k then PMulticast else PUnicast) /\
  impl_kind_dest k = (if is_multicast_kind k then DGroup else DRequester).
Proof. exact (fun k => conj (kind_pset_ok k) (kind_dest_ok k)). Qed.
Print Assumptions C15_kind_parameter_set.

(* every message kind, every outcome of the two draws: exactly 1 + repeat queue entries, repeat being the one of
   the set that belongs to the kind, inside the envelope *)
Theorem C15_envelope_kind : forall k d0 g,
  let p := if is_multicast_kind k then multicast_params else unicast_params in
  0 <= d0 <= init_ms p -> min_ms p <= g < max_ms p ->
  kind_params k = p /\ envelope (kind_params k) d0 g /\ length (kind_schedule_us k d0 g) = S (repeat p).
Proof.
  intros k d0 g. cbv zeta. rewrite <- spec_params_cases, kind_params_ok. intros Hd Hg.
  split; [reflexivity|]. split; [apply envelope_holds; auto using spec_params_wf|].
  unfold kind_schedule_us, schedule_us. now rewrite map_length, schedule_length, kind_params_ok.
Qed.
Print Assumptions C15_envelope_kind.

(* an own message id, registered before the first transmission, is dropped when it loops back, as
   long as fewer than [cap] further ids were remembered in between (the bound is part of the claim).
   [es] may contain any public operation of WSDiscovery (EvOp: publish, clear_service, clear_local_services,
   clear_remote_services, search, get_found, stop) and any other traffic; it contains no restart: stop() joins the
   send thread, so no own transmission is in flight when start() creates the next (empty) memory *)
Theorem C15_own_ids_ignored : forall k id es,
  no_restart es = true ->
  (count_inserts known_ids_cap (remember known_ids_cap k id) es < known_ids_cap)%nat ->
  snd (dstep known_ids_cap (fst (drun known_ids_cap (remember known_ids_cap k id) es)) (EvIn id)) = false.
Proof. exact (own_id_ignored known_ids_cap). Qed.
Print Assumptions C15_own_ids_ignored.

(* no public operation touches the id memory or hands a message to the handler; they do not count as insertions *)
Theorem C15_api_ops_keep_memory : forall k o es,
  dstep known_ids_cap k (EvOp o) = (k, false) /\
  count_inserts known_ids_cap k (EvOp o :: es) = count_inserts known_ids_cap k es /\
  fst (drun known_ids_cap k (EvOp o :: es)) = fst (drun known_ids_cap k es).
Proof. exact (fun k o es => conj eq_refl (conj eq_refl (drun_fst known_ids_cap k (EvOp o) es))). Qed.
Print Assumptions C15_api_ops_keep_memory.

Example C15_envelope_nonvacuous :
  wf multicast_params /\ 0 <= 499 <= init_ms multicast_params /\
  min_ms multicast_params <= 249 < max_ms multicast_params /\
  times (schedule_ms multicast_params 499 249) = [499; 748; 1246; 1746; 2246].
Proof. repeat split; try (vm_compute; congruence). Qed.

(* a clear_remote_services() between the registration of an own id and its loop back changes nothing *)
Example C15_own_ids_nonvacuous :
  snd (dstep known_ids_cap
        (fst (drun known_ids_cap (remember known_ids_cap [] (-1)) [EvOp OpClearRemote; EvIn 7; EvOut (-2); EvIn (-1)]))
        (EvIn (-1))) = false /\
  kind_schedule_us KResolveMatches 499 249 = [(499000, 1); (748000, 2); (1246000, 3)].
Proof. split; vm_compute; reflexivity. Qed.

(* at any moment of any history of enqueues and polls (any clock values): transmitted + still queued = enqueued,
   as multisets - no datagram is transmitted twice, none is dropped, none is invented *)
Theorem C15_sendloop_exactly_once : forall es,
  Permutation (sent_items (srun es) ++ fst (srun es)) (puts es).
Proof. exact sendloop_conservation. Qed.
Print Assumptions C15_sendloop_exactly_once.

(* no transmission goes out before its scheduled time, so the lower bounds of the envelope (initial delay >= 0,
   first gap >= min, following gaps) carry over from the schedule to the wire up to the poll raster *)
Theorem C15_sendloop_never_early : forall es,
  Forall (fun p => fst (snd p) <= fst p) (snd (srun es)).
Proof. exact sendloop_never_early. Qed.
Print Assumptions C15_sendloop_never_early.

(* the head of the queue is always the earliest pending transmission *)
Theorem C15_sendloop_queue_ordered : forall es, time_sorted (fst (srun es)).
Proof. intros es. apply (fold_inv (fun s => time_sorted (fst s)) sstep); [exact sstep_sorted|constructor]. Qed.
Print Assumptions C15_sendloop_queue_ordered.

(* the loop ends on an empty queue only (also after schedule_stop): once the clock has passed every scheduled
   time, as many polls as there are enqueued transmissions leave the queue empty and every one of the
   1 + repeat transmissions of every message has gone out exactly once, none early *)
Theorem C15_sendloop_drains : forall es now n,
  Forall (fun x => fst x <= now) (puts es) -> (length (puts es) <= n)%nat ->
  let s := srun (es ++ List.repeat (Tick now) n) in
  fst s = [] /\ Permutation (sent_items s) (puts es) /\ on_time s.
Proof. exact sendloop_drains. Qed.
Print Assumptions C15_sendloop_drains.

(* "every discovery message is transmitted exactly 1 + repeat times": C15_sendloop_drains read for a history whose
   enqueues are, in any order and interleaved with the polls in any way, the entries of one message (schedule_ms:
   1 + repeat of them, third conjunct; their times are the subject of C15_envelope) and arbitrary other traffic.
   Exactly these entries go out, each once, none before its scheduled time.  The schedule enters only as the list of
   its entries: nothing here depends on what the times are. *)
Theorem C15_wire_transmissions : forall p d0 g es others now n,
  Permutation (puts es) (others ++ schedule_ms p d0 g) ->
  Forall (fun x => fst x <= now) (puts es) -> (length (puts es) <= n)%nat ->
  let s := srun (es ++ List.repeat (Tick now) n) in
  fst s = [] /\
  Permutation (sent_items s) (others ++ schedule_ms p d0 g) /\
  length (schedule_ms p d0 g) = S (repeat p) /\
  on_time s.
Proof.
  intros p d0 g es others now n Hp Hall Hlen s.
  destruct (sendloop_drains es now n Hall Hlen) as (Hq & Hs & Ht). fold s in Hq, Hs, Ht.
  repeat split; [exact Hq | now rewrite Hs | apply schedule_length | exact Ht].
Qed.
Print Assumptions C15_wire_transmissions.

(* the history the code produces when nothing else happens: all entries of the message are put, then polls *)
Theorem C15_wire_single_message : forall p d0 g now n,
  Forall (fun x => fst x <= now) (schedule_ms p d0 g) -> (S (repeat p) <= n)%nat ->
  let s := srun (map Put (schedule_ms p d0 g) ++ List.repeat (Tick now) n) in
  fst s = [] /\ Permutation (sent_items s) (schedule_ms p d0 g) /\ length (sent_items s) = S (repeat p) /\ on_time s.
Proof.
  intros p d0 g now n Hall Hlen s.
  destruct (C15_wire_transmissions p d0 g (map Put (schedule_ms p d0 g)) [] now n) as (Hq & Hs & Hl & Ht);
    rewrite ?puts_map_Put, ?schedule_length; auto.
  fold s in Hq, Hs, Ht. cbn [app] in Hs. repeat split; auto. now rewrite (Permutation_length Hs).
Qed.
Print Assumptions C15_wire_single_message.

(* two messages in flight, polls before, between and after the due times, a late enqueue that overtakes *)
Example C15_sendloop_nonvacuous :
  observe (srun [Put (50, 1); Put (120, 2); Tick 40; Put (45, 1); Tick 47; Tick 47; Tick 60; Put (30, 2); Tick 61; Tick 200])
  = ([(47, 45); (60, 50); (61, 30); (200, 120)], []).
Proof. vm_compute. reflexivity. Qed.
