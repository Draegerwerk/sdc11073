(* XmlStruct -- proofs: every property kind reads back what it wrote, writes to different slots do not interfere,
   hence a class with pairwise different slots round-trips; lifted to nested values by induction on the depth. *)
From Coq Require Import List ZArith Bool.
From SDC Require Import Common.ListFacts XmlStruct.Model.
Import ListNotations.

Lemma get_set_assoc_eq n x l : get_assoc n (set_assoc n x l) = Some x.
Proof.
  induction l as [|[m v] r IH]; simpl; [now rewrite N.eqb_refl|].
  destruct (N.eqb m n) eqn:E; simpl; rewrite E; auto.
Qed.

Lemma eqb_ne n m : n <> m -> N.eqb m n = false.
Proof. intros H. apply N.eqb_neq. congruence. Qed.

Lemma get_set_assoc_ne n m x l : n <> m -> get_assoc n (set_assoc m x l) = get_assoc n l.
Proof.
  intros Hn. induction l as [|[k v] r IH]; simpl; [now rewrite eqb_ne|].
  destruct (N.eqb_spec k m) as [->|]; simpl; [now rewrite !eqb_ne|now rewrite IH].
Qed.

Lemma get_del_assoc_eq n l : get_assoc n (del_assoc n l) = None.
Proof. induction l as [|[m v] r IH]; simpl; auto. destruct (N.eqb m n) eqn:E; simpl; [|rewrite E]; auto. Qed.

Lemma get_del_assoc_ne n m l : n <> m -> get_assoc n (del_assoc m l) = get_assoc n l.
Proof.
  intros Hn. induction l as [|[k v] r IH]; simpl; auto.
  destruct (N.eqb_spec k m) as [->|]; simpl; [now rewrite eqb_ne|now rewrite IH].
Qed.

Inductive sview := VwAttr (x : option txt) | VwKids (k : list tree) | VwText (x : option txt) | VwNone.

Definition view (s : slot) (t : tree) : sview :=
  match s with
  | SAttr n => VwAttr (get_attr n t)
  | SElem n => VwKids (kids_named n t)
  | SText => VwText (t_text t)
  | SSelf => VwNone
  end.

Definition distinct (a b : slot) : Prop := slot_eqb a b = false.

Lemma distinct_sym a b : distinct a b -> distinct b a.
Proof.
  unfold distinct. destruct a, b; simpl; auto; rewrite N.eqb_sym; auto.
Qed.

Lemma filter_app_named n (l1 l2 : list tree) : filter (is_named n) (l1 ++ l2) = filter (is_named n) l1 ++ filter (is_named n) l2.
Proof. apply filter_app. Qed.

Lemma named_other n m k : is_named m k = true -> n <> m -> is_named n k = false.
Proof. unfold is_named. intros E Hn. apply N.eqb_eq in E. apply N.eqb_neq. congruence. Qed.

Lemma filter_del_first_ne n m l : n <> m -> filter (is_named n) (del_first_l m l) = filter (is_named n) l.
Proof.
  intros Hn. induction l as [|k r IH]; simpl; auto.
  destruct (is_named m k) eqn:E; simpl.
  - now rewrite (named_other n m k E Hn).
  - now rewrite IH.
Qed.

Lemma filter_del_all_ne n m l : n <> m ->
  filter (is_named n) (filter (fun k => negb (is_named m k)) l) = filter (is_named n) l.
Proof.
  intros Hn. induction l as [|k r IH]; simpl; auto.
  destruct (is_named m k) eqn:E; simpl.
  - now rewrite (named_other n m k E Hn).
  - now rewrite IH.
Qed.

Lemma filter_del_all_eq n l : filter (is_named n) (filter (fun k => negb (is_named n k)) l) = [].
Proof. induction l as [|k r IH]; simpl; auto. destruct (is_named n k) eqn:E; simpl; auto. now rewrite E. Qed.

Definition keeps_tag (f : tree -> tree) : Prop := forall k, t_tag (f k) = t_tag k.

Lemma filter_upd_first_ne n m f l : n <> m -> keeps_tag f ->
  filter (is_named n) (upd_first_l m f l) = filter (is_named n) l.
Proof.
  intros Hn Kf. induction l as [|k r IH]; simpl.
  - unfold is_named. rewrite Kf. simpl. now rewrite eqb_ne.
  - destruct (is_named m k) eqn:E; simpl; [|now rewrite IH].
    unfold is_named in *. rewrite Kf. apply N.eqb_eq in E. now rewrite E, eqb_ne.
Qed.

Lemma filter_upd_first_free n f l : filter (is_named n) l = [] -> keeps_tag f ->
  filter (is_named n) (upd_first_l n f l) = [f (Node n [] None [])].
Proof.
  intros Hf Kf. induction l as [|k r IH]; simpl.
  - unfold is_named. rewrite Kf. simpl. now rewrite N.eqb_refl.
  - simpl in Hf. destruct (is_named n k) eqn:E; [discriminate|]. simpl. rewrite E. auto.
Qed.

Lemma keeps_set_text x : keeps_tag (set_text x).
Proof. intros [g a y k]; reflexivity. Qed.
Lemma keeps_set_kids (g : tree -> list tree) : keeps_tag (fun k => set_kids (g k) k).
Proof. intros [t a y k]; reflexivity. Qed.

(* t' has the tag of t and shows the same content in every slot that cannot overlap with sl *)
Definition same_but (sl : slot) (t t' : tree) : Prop :=
  t_tag t' = t_tag t /\ forall s, distinct s sl -> view s t' = view s t.

Lemma same_refl sl t : same_but sl t t.
Proof. split; reflexivity. Qed.

Lemma same_trans sl t1 t2 t3 : same_but sl t1 t2 -> same_but sl t2 t3 -> same_but sl t1 t3.
Proof.
  intros [T1 V1] [T2 V2]. split; [congruence|]. intros s D. now rewrite V2, V1.
Qed.

Lemma same_attrs n a' t : (forall m, m <> n -> get_assoc m a' = get_assoc m (t_attrs t)) ->
  same_but (SAttr n) t (Node (t_tag t) a' (t_text t) (t_kids t)).
Proof.
  intros H. split; [reflexivity|]. intros [m|m| |] D; try reflexivity.
  apply N.eqb_neq in D. simpl. unfold get_attr. simpl. now rewrite H.
Qed.

Lemma same_set_attr n x t : same_but (SAttr n) t (set_attr n x t).
Proof. apply same_attrs. intros m Hm. now apply get_set_assoc_ne. Qed.

Lemma same_del_attr n t : same_but (SAttr n) t (del_attr n t).
Proof. apply same_attrs. intros m Hm. now apply get_del_assoc_ne. Qed.

Lemma same_set_text x t : same_but SText t (set_text x t).
Proof. split; [reflexivity|]. intros [m|m| |] D; try reflexivity; discriminate D. Qed.

Lemma same_set_kids n ks t : (forall m, m <> n -> filter (is_named m) ks = filter (is_named m) (t_kids t)) ->
  same_but (SElem n) t (set_kids ks t).
Proof.
  intros H. split; [reflexivity|]. intros [m|m| |] D; try reflexivity.
  apply N.eqb_neq in D. simpl. unfold kids_named. simpl. now rewrite H.
Qed.

Lemma same_add_kid n k t t1 : t_tag k = n -> same_but (SElem n) t t1 -> same_but (SElem n) t (add_kid k t1).
Proof.
  intros E H. apply (same_trans _ _ _ _ H), same_set_kids. intros m Hm. rewrite filter_app. simpl. unfold is_named at 2.
  rewrite E, eqb_ne by congruence. apply app_nil_r.
Qed.

Lemma same_del_first n t : same_but (SElem n) t (del_first n t).
Proof. apply same_set_kids. intros m Hm. now apply filter_del_first_ne. Qed.

Lemma same_del_all n t : same_but (SElem n) t (del_all n t).
Proof. apply same_set_kids. intros m Hm. now apply filter_del_all_ne. Qed.

Lemma same_upd_or_add n f t : keeps_tag f -> same_but (SElem n) t (upd_or_add n f t).
Proof. intros Kf. apply same_set_kids. intros m Hm. now apply filter_upd_first_ne. Qed.

Lemma same_fold_text n t : forall l t1, same_but (SElem n) t t1 ->
  same_but (SElem n) t (fold_left (fun t a => add_kid (Node n [] (atom_txt a) []) t) l t1).
Proof. induction l as [|a r IH]; simpl; intros t1 H; [exact H|]. now apply IH, same_add_kid. Qed.

(* The edits compose from the inside out: same_add_kid and same_fold_text continue a tree already related to t. *)
Create HintDb same discriminated.
#[export] Hint Resolve same_refl same_set_attr same_del_attr same_set_text same_add_kid same_del_first same_del_all
  same_upd_or_add same_fold_text keeps_set_text keeps_set_kids : same.
Local Arguments enc_kid : simpl never.

Section Frame.
  Variable encf : val -> name -> option tree.
  Variable decf : N -> tree -> option val.
  Hypothesis enc_tag : forall v n k, encf v n = Some k -> t_tag k = n.

  Lemma enc_kid_tag p n v k : enc_kid encf p n v = Some k -> t_tag k = n.
  Proof.
    unfold enc_kid. destruct v; try discriminate. destruct (encf (VStruct cid fs) n) as [k0|] eqn:E; try discriminate.
    intros H. injection H as <-. apply enc_tag in E. destruct (N.eqb cid (p_vcls p)); auto.
  Qed.

  Lemma enc_kids_same p n t : forall vs t1 t', enc_kids encf p n vs t1 = Some t' ->
    same_but (SElem n) t t1 -> same_but (SElem n) t t'.
  Proof.
    induction vs as [|v r IH]; simpl; intros t1 t' H S.
    - now injection H as <-.
    - destruct (enc_kid encf p n v) as [k|] eqn:E; [|discriminate].
      apply (IH _ _ H), same_add_kid; [exact (enc_kid_tag _ _ _ _ E)|exact S].
  Qed.

  (* Every branch of write_prop that succeeds composes edits of the property's own slot. *)
  Lemma write_prop_same p v t t' : write_prop encf p v t = Some t' -> same_but (slot_of p) t t'.
  Proof.
    unfold write_prop, slot_of.
    destruct (p_kind p), (p_name p) as [n|]; simpl; intros H; try discriminate H;
      repeat match type of H with
             | None = Some _ => discriminate H
             | Some _ = Some _ => injection H as <-
             | context [match ?x with _ => _ end] => destruct x eqn:?; simpl in H
             end;
      auto with same; eauto using enc_kid_tag, enc_kids_same with same.
  Qed.

  (* writing one property leaves the view of every other slot untouched *)
  Lemma write_frame s q v t t' : distinct s (slot_of q) -> write_prop encf q v t = Some t' -> view s t' = view s t.
  Proof. intros D H. now apply (write_prop_same q v t t' H). Qed.

  Lemma write_all_same : forall ps fs t t', write_all encf ps fs t = Some t' ->
    t_tag t' = t_tag t /\ forall s, Forall (fun q => distinct s (slot_of q)) ps -> view s t' = view s t.
  Proof.
    induction ps as [|q ps IH]; intros [|f fs] t t' H; simpl in H; try discriminate.
    - injection H as <-. now split.
    - destruct (write_prop encf q f t) as [t1|] eqn:E; try discriminate.
      destruct (write_prop_same _ _ _ _ E) as [T1 V1], (IH _ _ _ H) as [T V]. split; [congruence|].
      intros s F. inversion F; subst. rewrite V, V1; auto.
  Qed.

  Lemma write_all_frame s : forall ps fs t t',
    Forall (fun q => distinct s (slot_of q)) ps -> write_all encf ps fs t = Some t' -> view s t' = view s t.
  Proof. intros ps fs t t' F H. now apply (write_all_same ps fs t t' H). Qed.

  (* what a property reads depends on the view of its own slot only *)
  Lemma read_view p t t' : view (slot_of p) t = view (slot_of p) t' -> read_prop decf p t = read_prop decf p t'.
  Proof.
    unfold slot_of, read_prop, find_kid.
    destruct (p_kind p), (p_name p) as [n|]; simpl; intros V; try reflexivity; injection V as ->; reflexivity.
  Qed.

  Lemma read_member_view p t t' : view (slot_of p) t = view (slot_of p) t' -> read_member decf p t = read_member decf p t'.
  Proof. intros V. unfold read_member. now rewrite (read_view p t t' V). Qed.

  Lemma read_all_view : forall ps t t', Forall (fun p => view (slot_of p) t = view (slot_of p) t') ps ->
    read_all decf ps t = read_all decf ps t'.
  Proof.
    induction ps as [|p ps IH]; intros t t' F; [reflexivity|]. inversion F; subst. simpl.
    now rewrite (read_member_view p t t'), (IH t t').
  Qed.
End Frame.

Definition vempty (s : slot) : sview :=
  match s with SAttr _ => VwAttr None | SElem _ => VwKids [] | SText => VwText None | SSelf => VwNone end.
Definition free (s : slot) (t : tree) : Prop := view s t = vempty s.

Lemma free_attr n t : free (SAttr n) t -> get_attr n t = None.
Proof. unfold free; simpl. congruence. Qed.
Lemma free_elem n t : free (SElem n) t -> kids_named n t = [].
Proof. unfold free; simpl. congruence. Qed.
Lemma free_text t : free SText t -> t_text t = None.
Proof. unfold free; simpl. congruence. Qed.

Lemma get_set_attr n x t : get_attr n (set_attr n x t) = Some x.
Proof. destruct t; unfold get_attr; simpl. apply get_set_assoc_eq. Qed.
Lemma get_del_attr n t : get_attr n (del_attr n t) = None.
Proof. destruct t; unfold get_attr; simpl. apply get_del_assoc_eq. Qed.

Lemma del_first_free n l : filter (is_named n) l = [] -> del_first_l n l = l.
Proof.
  induction l as [|k r IH]; simpl; auto. destruct (is_named n k) eqn:E; [discriminate|]. intros H. now rewrite IH.
Qed.

Lemma kids_del_first_free n t : kids_named n t = [] -> kids_named n (del_first n t) = [].
Proof. destruct t; unfold kids_named; simpl. intros H. now rewrite del_first_free. Qed.

Lemma del_first_id n t : kids_named n t = [] -> del_first n t = t.
Proof. destruct t; unfold kids_named, del_first, set_kids; simpl. intros H. now rewrite del_first_free. Qed.

Lemma kids_upd_free n f t : kids_named n t = [] -> keeps_tag f -> kids_named n (upd_or_add n f t) = [f (Node n [] None [])].
Proof. destruct t; unfold kids_named; simpl. apply filter_upd_first_free. Qed.

Lemma kids_add n k t : t_tag k = n -> kids_named n (add_kid k t) = kids_named n t ++ [k].
Proof.
  destruct t; unfold kids_named; simpl. intros E. rewrite filter_app. simpl. unfold is_named at 2.
  now rewrite E, N.eqb_refl.
Qed.

Lemma kids_del_all n t : kids_named n (del_all n t) = [].
Proof. destruct t; unfold kids_named; simpl. apply filter_del_all_eq. Qed.

Lemma kids_fold_text n : forall l t,
  kids_named n (fold_left (fun t a => add_kid (Node n [] (atom_txt a) []) t) l t)
  = kids_named n t ++ map (fun a => Node n [] (atom_txt a) []) l.
Proof.
  induction l as [|a r IH]; simpl; intros t; [now rewrite app_nil_r|].
  rewrite IH, kids_add by reflexivity. now rewrite <- app_assoc.
Qed.

Lemma atom_txt_back a : match atom_txt a with Some [b] => b | _ => EMPTY end = a.
Proof. unfold atom_txt. destruct (Z.eqb a EMPTY) eqn:E; auto. now apply Z.eqb_eq in E. Qed.

(* the values of a member that are in normal form (read back exactly as written) *)
Definition valid_field_gen (ok : val -> Prop) (p : prop) (f : val) : Prop :=
  match p_kind p, p_name p with
  | KAttr, Some _ => (exists a, f = VAtom a) \/ (f = VNone /\ p_opt p = true)
  | KCurTs, Some _ => f = VAtom 1
  | KAttrList, Some _ => exists l, f = VWords l
  | KText, Some _ => (exists a, f = VAtom a /\ (a <> EMPTY \/ p_conv p = CStr)) \/
                     (f = VNone /\ p_opt p = true /\ p_hasdef p = false)
  | KText, None => (exists a, f = VAtom a /\ (a <> EMPTY \/ p_conv p = CStr)) \/
                   (f = VNone /\ (p_conv p = CNum \/ p_conv p = CQName) /\ (p_opt p = true \/ p_minlen p = false))
  | KTextList, Some _ => exists l, f = VWords l
  | KTextList, None => exists l, f = VWords l
  | KQNameList, Some _ => exists l, f = VWords l
  | KQNameList, None => exists l, f = VWords l
  | KElemTextList, Some _ => exists l, f = VWords l
  | KSub, Some _ => ok f \/ (f = VNone /\ p_opt p = true /\ p_hasdef p = false)
  | KSubList, Some _ => exists vs, f = VList vs /\ Forall ok vs
  | KSubNonEmpty, Some _ => ok f /\ struct_all_empty f = false
  | KExt, Some _ => exists ts, f = VOpaque ts
  | KAny, Some _ => (exists ts, f = VOpaque ts) \/ (f = VNone /\ p_opt p = true)
  | KAnyList, Some _ => exists ts, f = VOpaque ts
  | _, _ => False
  end.

Lemma valid_field_mono (ok ok' : val -> Prop) p f : (forall v, ok v -> ok' v) ->
  valid_field_gen ok p f -> valid_field_gen ok' p f.
Proof.
  intros M. unfold valid_field_gen. destruct (p_kind p), (p_name p); auto.
  - intros [H|H]; auto.
  - intros (vs & -> & F). exists vs. split; auto. eapply Forall_impl; eauto.
  - intros [H E]; auto.
Qed.

Section ReadWrite.
  Variable encf : val -> name -> option tree.
  Variable decf : N -> tree -> option val.

  (* a nested value the surrounding class can rely on: it can be written under any tag, carries no xsi:type of
     its own, and is read back as itself - with or without an xsi:type attribute added by the parent *)
  Definition nested_ok (v : val) : Prop :=
    match v with
    | VStruct cid _ => forall n, exists k, encf v n = Some k /\ t_tag k = n /\ get_attr XSI k = None /\
                                           decf cid k = Some v /\ forall x, decf cid (set_attr XSI x k) = Some v
    | _ => False
    end.

  Definition valid_field := valid_field_gen nested_ok.

  Lemma scalar_back c a : a <> EMPTY \/ c = CStr -> scalar_of_text c (atom_txt a) = Some (VAtom a).
  Proof.
    unfold atom_txt. destruct (Z.eqb a EMPTY) eqn:E; simpl; auto.
    apply Z.eqb_eq in E. intros [H| ->]; [congruence|]. now subst.
  Qed.

  Lemma words_back l : match words_txt l with Some x => x | None => [] end = l.
  Proof. destruct l; reflexivity. Qed.

  Lemma enc_kid_ok p n v : nested_ok v -> exists k, enc_kid encf p n v = Some k /\ t_tag k = n /\ dec_kid decf p k = Some v.
  Proof.
    destruct v as [| | | |cid fs| |]; simpl; try contradiction. intros H.
    destruct (H n) as (k & E & T & X & D & DX). unfold enc_kid. rewrite E.
    destruct (N.eqb cid (p_vcls p)) eqn:Ec.
    - exists k. repeat split; auto. unfold dec_kid. rewrite X. apply N.eqb_eq in Ec. now subst.
    - exists (set_attr XSI [Z.of_N cid] k). repeat split.
      + destruct k; simpl in *; auto.
      + unfold dec_kid. rewrite get_set_attr, N2Z.id. apply DX.
  Qed.

  Lemma enc_kids_ok p n : forall vs t, Forall nested_ok vs ->
    exists t', enc_kids encf p n vs t = Some t' /\
               exists ks, kids_named n t' = kids_named n t ++ ks /\ dec_kids decf p ks = Some vs.
  Proof.
    induction vs as [|v r IH]; intros t F; simpl.
    - exists t. split; auto. exists []. now rewrite app_nil_r.
    - inversion F; subst. destruct (enc_kid_ok p n v H1) as (k & E & T & D). rewrite E.
      destruct (IH (add_kid k t) H2) as (t' & E' & ks & K & Dk). exists t'. split; auto.
      exists (k :: ks). split.
      + rewrite K, kids_add by auto. now rewrite <- app_assoc.
      + simpl. now rewrite D, Dk.
  Qed.

  (* every property kind reads back the (valid) value it wrote into a node whose slot was empty *)
  Lemma read_write p f t : free (slot_of p) t -> valid_field p f ->
    exists t', write_prop encf p f t = Some t' /\ read_member decf p t' = Some f.
  Proof.
    unfold slot_of, valid_field, valid_field_gen, write_prop, read_member, update_value, read_prop, find_kid.
    destruct (p_kind p) eqn:K, (p_name p) as [n|] eqn:Nm; simpl; intros Fr V; try contradiction.
    - (* KAttr *) destruct V as [(a & ->)|(-> & ->)]; eexists; split; eauto.
      + now rewrite get_set_attr.
      + now rewrite get_del_attr.
    - (* KCurTs *) subst f. eexists; split; eauto. now rewrite get_set_attr.
    - (* KAttrList *) destruct V as (l & ->). destruct l as [|a l].
      + destruct (p_opt p); eexists; split; eauto; [now rewrite get_del_attr|now rewrite get_set_attr].
      + eexists; split; eauto. now rewrite get_set_attr.
    - (* KText, element *) apply free_elem in Fr. destruct V as [(a & -> & Ha)|(-> & Ho & Hd)].
      + eexists; split; eauto. rewrite kids_upd_free by auto using keeps_set_text. simpl. now rewrite scalar_back.
      + rewrite Ho. simpl. eexists; split; eauto. rewrite kids_del_first_free by auto. simpl. now rewrite Hd.
    - (* KText, own text *) destruct V as [(a & -> & Ha)|(-> & Hc & Hm)].
      + eexists; split; eauto. destruct t; simpl. now rewrite scalar_back.
      + assert (E : negb (p_opt p) && p_minlen p = false) by (destruct Hm as [-> | ->]; auto using andb_false_r).
        rewrite E. eexists; split; eauto. destruct t; simpl. destruct Hc as [-> | ->]; reflexivity.
    - (* KTextList, element *) apply free_elem in Fr. destruct V as (l & ->).
      eexists; split; eauto. rewrite kids_upd_free by auto using keeps_set_text. simpl. now rewrite words_back.
    - (* KTextList, own text *) destruct V as (l & ->). eexists; split; eauto. destruct t; simpl. now rewrite words_back.
    - (* KQNameList, element *) apply free_elem in Fr. destruct V as (l & ->).
      eexists; split; eauto. rewrite kids_upd_free by auto using keeps_set_text. simpl. destruct l; reflexivity.
    - (* KQNameList, own text *) destruct V as (l & ->). eexists; split; eauto. destruct t; simpl. destruct l; reflexivity.
    - (* KElemTextList *) apply free_elem in Fr. destruct V as (l & ->). destruct l as [|a l].
      + eexists; split; eauto. now rewrite Fr.
      + eexists; split; eauto. rewrite kids_fold_text, kids_del_all. cbn [app]. rewrite map_map. cbn [t_text].
        now rewrite (map_ext _ (fun b => b) atom_txt_back), map_id.
    - (* KSub *) apply free_elem in Fr. destruct V as [Hn|(-> & -> & Hd)].
      + destruct (enc_kid_ok p n f Hn) as (k & E & T & D).
        assert (Hv : match f with VNone => False | _ => True end) by (destruct f; simpl in Hn; auto).
        destruct f; try contradiction; rewrite E; eexists; split; eauto;
          rewrite kids_add, kids_del_first_free by auto; simpl; rewrite D; reflexivity.
      + eexists; split; eauto. rewrite Fr. simpl. unfold absent_struct. now rewrite Hd.
    - (* KSubList *) destruct V as (vs & -> & Fv).
      destruct (enc_kids_ok p n vs (del_all n t) Fv) as (t' & E & ks & Kk & D).
      exists t'. split; auto. rewrite Kk, kids_del_all. simpl. now rewrite D.
    - (* KSubNonEmpty *) apply free_elem in Fr. destruct V as (Hn & He).
      assert (Hv : is_empty_val f = false) by (destruct f; simpl in Hn; try contradiction; reflexivity).
      rewrite Hv, He. simpl. destruct (enc_kid_ok p n f Hn) as (k & E & T & D). rewrite E.
      eexists; split; eauto. rewrite kids_add, kids_del_first_free by auto. simpl. now rewrite D.
    - (* KExt *) apply free_elem in Fr. destruct V as (ts & ->). destruct ts as [|x ts].
      + eexists; split; eauto. now rewrite Fr.
      + eexists; split; eauto. rewrite kids_upd_free by auto using keeps_set_kids. reflexivity.
    - (* KAny *) apply free_elem in Fr. destruct V as [(ts & ->)|(-> & ->)].
      + eexists; split; eauto. rewrite kids_upd_free by auto using keeps_set_kids. reflexivity.
      + eexists; split; eauto. now rewrite kids_del_first_free.
    - (* KAnyList *) apply free_elem in Fr. destruct V as (ts & ->). destruct ts as [|x ts].
      + destruct (p_opt p); eexists; split; eauto; [now rewrite kids_del_first_free|now rewrite Fr].
      + eexists; split; eauto. rewrite kids_upd_free by auto using keeps_set_kids. reflexivity.
  Qed.
End ReadWrite.

Lemma free_transfer s t t' : view s t' = view s t -> free s t -> free s t'.
Proof. unfold free. congruence. Qed.

Lemma no_clash_cons s ss : no_clash (s :: ss) = true -> Forall (distinct s) ss /\ no_clash ss = true.
Proof.
  simpl. intros H. apply andb_prop in H as [H1 H2]. split; auto.
  apply negb_true_iff in H1. apply Forall_forall. exact (proj1 (existsb_false _ _) H1).
Qed.

Section ClassRT.
  Variable encf : val -> name -> option tree.
  Variable decf : N -> tree -> option val.
  Hypothesis enc_tag : forall v n k, encf v n = Some k -> t_tag k = n.

  (* a class whose members occupy pairwise different slots reads back all of them: the later writes do not touch
     the slot of the first member *)
  Lemma class_rt : forall ps fs t, no_clash (map slot_of ps) = true ->
    Forall2 (valid_field encf decf) ps fs -> Forall (fun p => free (slot_of p) t) ps ->
    exists t', write_all encf ps fs t = Some t' /\ read_all decf ps t' = Some fs.
  Proof.
    induction ps as [|p ps IH]; intros fs t NC V Fr.
    - inversion V; subst. exists t. simpl. auto.
    - inversion V as [|? f ? fs' Vp Vr]; subst. inversion Fr as [|? ? Fp Frr]; subst.
      cbn [map] in NC. apply no_clash_cons in NC as [Dp NC]. rewrite Forall_map in Dp.
      destruct (read_write encf decf p f t Fp Vp) as (t1 & W & R).
      assert (Fr1 : Forall (fun q => free (slot_of q) t1) ps).
      { eapply Forall_impl; [|exact (Forall_and Frr Dp)]. cbv beta. intros q [Fq Dq].
        eapply free_transfer; [|exact Fq]. eapply write_frame; eauto using distinct_sym. }
      destruct (IH fs' t1 NC Vr Fr1) as (t' & W' & R').
      exists t'. simpl. rewrite W. split; [exact W'|].
      rewrite R', (read_member_view decf p t' t1), R; [reflexivity|].
      exact (write_all_frame encf enc_tag _ _ _ _ _ Dp W').
  Qed.
End ClassRT.

Lemma lookup_in_spec l cid c : lookup_in l cid = Some c -> In c l /\ c_id c = cid.
Proof.
  induction l as [|x r IH]; simpl; try discriminate.
  destruct (N.eqb (c_id x) cid) eqn:E.
  - intros H. injection H as <-. apply N.eqb_eq in E. auto.
  - intros H. destruct (IH H). auto.
Qed.

Lemma xsi_distinct p : not_xsi p = true -> not_self p = true -> distinct (SAttr XSI) (slot_of p).
Proof.
  unfold not_xsi, not_self, distinct. destruct (slot_of p); cbn [slot_eqb]; try discriminate; auto.
  intros H _. apply negb_true_iff in H. now rewrite N.eqb_sym.
Qed.

Section Depth.
  Variable classes : list cls.

  Definition wf_slots (c : cls) : Prop :=
    no_clash (map slot_of (c_props c)) = true /\ forallb not_xsi (c_props c) = true /\
    forallb not_self (c_props c) = true.

  Hypothesis Hwf : forall c, In c classes -> wf_slots c.

  (* a value all of whose members are in normal form, down to depth n *)
  Fixpoint valid (n : nat) (v : val) : Prop :=
    match n with
    | O => False
    | S n' => match v with
              | VStruct cid fs => exists c, lookup classes cid = Some c /\
                                            Forall2 (valid_field_gen (valid n')) (c_props c) fs
              | _ => False
              end
    end.

  Lemma enc_keeps_tag n : forall v tag k, enc classes n v tag = Some k -> t_tag k = tag.
  Proof.
    induction n as [|n IH]; simpl; intros v tag k H; try discriminate.
    destruct v; try discriminate. destruct (lookup classes cid); try discriminate.
    exact (proj1 (write_all_same _ IH _ _ _ _ H)).
  Qed.

  Theorem roundtrip n : forall v, valid n v -> nested_ok (enc classes n) (dec classes n) v.
  Proof.
    induction n as [|n IH]; intros v Hv; [destruct Hv|].
    destruct v as [| | | |cid fs| |]; try (now destruct Hv). destruct Hv as (c & Lc & Vf).
    destruct (lookup_in_spec _ _ _ Lc) as [Hin Hid]. destruct (Hwf c Hin) as (NC & NX & NS).
    assert (Vf' : Forall2 (valid_field (enc classes n) (dec classes n)) (c_props c) fs).
    { eapply Forall2_impl; [|exact Vf]. intros p f. apply valid_field_mono. exact IH. }
    intros tag.
    assert (Fr : Forall (fun p => free (slot_of p) (Node tag [] None [])) (c_props c)).
    { apply Forall_forall. intros p _. unfold free. destruct (slot_of p); reflexivity. }
    destruct (class_rt (enc classes n) (dec classes n) (enc_keeps_tag n) (c_props c) fs _ NC Vf' Fr) as (t' & W & R).
    assert (DX : Forall (fun p => distinct (SAttr XSI) (slot_of p)) (c_props c)).
    { rewrite forallb_forall in NX, NS. apply Forall_forall. intros p Hp. apply xsi_distinct; auto. }
    destruct (write_all_same _ (enc_keeps_tag n) _ _ _ _ W) as [T Vw].
    exists t'. simpl. rewrite Lc. split; [exact W|]. split; [exact T|].
    split; [specialize (Vw (SAttr XSI) DX); now injection Vw|].
    split; [now rewrite R|].
    (* no member looks at the xsi:type attribute *)
    intros x. rewrite (read_all_view _ _ (set_attr XSI x t') t'), R; [reflexivity|].
    eapply Forall_impl; [|exact DX]. intros p D. apply same_set_attr, distinct_sym, D.
  Qed.

  (* as_etree_node / mk_node followed by from_node is the identity on values in normal form *)
  Corollary class_roundtrip n cid fs tag : valid n (VStruct cid fs) ->
    exists t, enc classes n (VStruct cid fs) tag = Some t /\ dec classes n cid t = Some (VStruct cid fs).
  Proof.
    intros V. destruct (roundtrip n _ V tag) as (k & E & _ & _ & D & _). eauto.
  Qed.

  Lemma enc_dec n cid fs tag t : valid n (VStruct cid fs) ->
    enc classes n (VStruct cid fs) tag = Some t -> dec classes n cid t = Some (VStruct cid fs).
  Proof. intros V E. destruct (class_roundtrip n cid fs tag V) as (t' & E' & D). congruence. Qed.
End Depth.

Lemma valid_length classes n cid fs c : valid classes n (VStruct cid fs) -> lookup classes cid = Some c ->
  length (c_props c) = length fs.
Proof.
  destruct n; [intros []|]. intros (c' & Lc' & F) Lc. assert (c' = c) by congruence. subst c'.
  exact (Forall2_length _ _ _ F).
Qed.

(* what a member reads as when its attribute / element is not in the XML *)
Definition absent_value (p : prop) : val :=
  match p_kind p with
  | KAttr | KCurTs | KAny => VNone
  | KAttrList | KElemTextList | KTextList | KQNameList => VWords []
  | KText | KSub | KSubNonEmpty => if p_hasdef p then VDflt else VNone
  | KSubList => VList []
  | KExt | KAnyList => VOpaque []
  end.

Lemma wf_class_slots c : wf_class c = true -> wf_slots c.
Proof.
  unfold wf_class, wf_slots. intros H. repeat (apply andb_prop in H as [H ?]). auto.
Qed.

Lemma wf_filter (l : list cls) : forall c, In c (filter wf_class l) -> wf_slots c.
Proof. intros c H. apply filter_In in H as [_ H]. now apply wf_class_slots. Qed.

Open Scope N_scope.
(* class 1 "CodedValue": Extension, list of class-2 elements (name 11), attribute Code (mandatory), attribute list
   class 2 "LocalizedText": own text, attribute Lang;  class 3 derives class 2 by an extra attribute (xsi:type)
   class 4 "State": attribute, defaulted sub-element of class 1 (name 13), text-element list, current-time attribute *)
Definition demo_classes : list cls :=
  [ mkCls 1 [mkProp KExt (Some 10) COther true false false 0 false;
             mkProp KSubList (Some 11) COther true false false 2 false;
             mkProp KAttr (Some 20) CStr false false false 0 false;
             mkProp KAttrList (Some 21) COther true false false 0 false] [10; 11];
    mkCls 2 [mkProp KText None CStr false false false 0 false; mkProp KAttr (Some 22) CStr true false false 0 false] [];
    mkCls 3 [mkProp KText None CStr false false false 0 false; mkProp KAttr (Some 22) CStr true false false 0 false;
             mkProp KAttr (Some 23) CNum true false false 0 false] [];
    mkCls 4 [mkProp KAttr (Some 24) CStr false false false 0 false;
             mkProp KSub (Some 13) COther false true true 1 false;
             mkProp KElemTextList (Some 14) COther true false false 0 false;
             mkProp KCurTs (Some 25) CNum true false false 0 false] [13; 14] ].

Definition demo_value : val :=
  VStruct 4 [VAtom 7;
             VStruct 1 [VOpaque [Node 99 [(1, [5%Z])] (Some [6%Z]) []];
                        VList [VStruct 2 [VAtom 30; VNone]; VStruct 3 [VAtom EMPTY; VAtom 31; VAtom 32]];
                        VAtom 8; VWords [40%Z; 41%Z]];
             VWords [50%Z; EMPTY; 51%Z];
             VAtom 1].

Lemma demo_wf : forallb wf_class demo_classes = true.
Proof. reflexivity. Qed.

Lemma demo_roundtrip :
  exists t, enc demo_classes 3 demo_value 100 = Some t /\ dec demo_classes 3 4 t = Some demo_value /\
            t = Node 100 [(24, [7%Z]); (25, [1%Z])] None
                  [Node 13 [(20, [8%Z]); (21, [40%Z; 41%Z])] None
                     [Node 10 [] None [Node 99 [(1, [5%Z])] (Some [6%Z]) []];
                      Node 11 [] (Some [30%Z]) [];
                      Node 11 [(22, [31%Z]); (23, [32%Z]); (XSI, [3%Z])] None []];
                   Node 14 [] (Some [50%Z]) []; Node 14 [] None []; Node 14 [] (Some [51%Z]) []].
Proof. eexists. split; [reflexivity|]. split; reflexivity. Qed.

(* an absent defaulted sub-element reads as the declared default, an absent list as the empty list *)
Lemma demo_absent :
  dec demo_classes 3 4 (Node 100 [(24, [7%Z])] None []) = Some (VStruct 4 [VAtom 7; VDflt; VWords []; VNone]).
Proof. reflexivity. Qed.

(* WITHOUT the well-formedness condition the statement is false: two members bound to the same element name
   (pm_types.ClinicalInfo.Type / .Code before the repair) -- the value written is not the value read *)
Definition clash_classes : list cls :=
  [ mkCls 1 [mkProp KSub (Some 16) COther true false false 2 false; mkProp KSub (Some 16) COther true false false 2 false] [];
    mkCls 2 [mkProp KAttr (Some 20) CStr false false false 0 false] [] ].

Lemma duplicate_slot_refuted :
  wf_class (mkCls 1 [mkProp KSub (Some 16) COther true false false 2 false;
                     mkProp KSub (Some 16) COther true false false 2 false] []) = false /\
  exists t, enc clash_classes 3 (VStruct 1 [VNone; VStruct 2 [VAtom 5]]) 100 = Some t /\
            dec clash_classes 3 1 t = Some (VStruct 1 [VStruct 2 [VAtom 5]; VStruct 2 [VAtom 5]]).
Proof. split; [reflexivity|]. eexists. split; reflexivity. Qed.
