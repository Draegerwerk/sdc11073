(* XmlStruct -- proofs about instances with a history (XmlStruct/Instance.v):
   1. with the store policy "always assign" reading into ANY populated instance is reading into a fresh instance,
      and every policy that keeps the previous value for some member that can read as None breaks that;
   2. with the attach mode Copy a write changes neither the value nor any document that exists, and a second write
      yields the same document; with Move (lxml re-parents) earlier documents lose their content;
   3. with the get policy GetIfNone attribute access returns every stored value, whatever its truth value. *)
From Coq Require Import List ZArith Bool.
From SDC Require Import XmlStruct.Model XmlStruct.Proofs XmlStruct.Instance.
Import ListNotations.

Lemma update_value_id p v : v <> VNone -> update_value p v = v.
Proof. unfold update_value. destruct (p_kind p), v; auto; congruence. Qed.

Lemma update_never_is_read decf p old t : update_member keep_never decf p old t = read_member decf p t.
Proof.
  unfold update_member, read_member, keep_never. destruct (read_prop decf p t) as [v|]; simpl; auto.
  destruct v; simpl; auto; rewrite update_value_id; auto; discriminate.
Qed.

Lemma update_all_never decf : forall ps olds t, length olds = length ps ->
  update_all keep_never decf ps olds t = read_all decf ps t.
Proof.
  induction ps as [|p ps IH]; intros [|o olds] t L; simpl in *; try discriminate; auto.
  rewrite update_never_is_read, IH by (now injection L). reflexivity.
Qed.

(* the unrepaired list policy is right on FRESH instances (why from_node never showed the problem): a reader of a
   list kind whose initial value differs from what update_value makes of None never returns None *)
Lemma update_lists_fresh decf p t : update_member keep_lists decf p (init_val p) t = read_member decf p t.
Proof.
  unfold update_member, read_member. destruct (read_prop decf p t) as [v|] eqn:E; [|reflexivity].
  destruct v; simpl; try (rewrite update_value_id by discriminate; reflexivity).
  unfold keep_lists, init_val, update_value. unfold read_prop in E.
  destruct (p_kind p); try reflexivity; exfalso; destruct (p_name p); try discriminate E; simpl in E.
  - destruct (dec_kids _ _ _); discriminate E.
  - destruct (find_kid _ _); discriminate E.
Qed.

(* a policy that keeps the previous value of a member whose reader returns None: stale value *)
Lemma keep_refuted keep decf p t : keep p = true -> read_prop decf p t = Some VNone ->
  update_member keep decf p (VAtom 1) t = Some (VAtom 1) /\ read_member decf p t <> Some (VAtom 1).
Proof.
  intros K R. unfold update_member, read_member. rewrite R, K. split; auto.
  simpl. unfold update_value. destruct (p_kind p); discriminate.
Qed.

(* the members whose reader returns None when the attribute / element is absent *)
Definition reads_none_when_absent (p : prop) : bool :=
  match p_kind p with
  | KAttr | KCurTs | KAny | KTextList => true
  | KText | KSub | KSubNonEmpty => negb (p_hasdef p)
  | _ => false
  end.

Lemma absent_reads_none decf p n t : p_name p = Some n -> free (slot_of p) t -> reads_none_when_absent p = true ->
  read_prop decf p t = Some VNone.
Proof.
  unfold slot_of, read_prop, find_kid, reads_none_when_absent, absent_struct.
  intros -> Fr. destruct (p_kind p); simpl in *; intros H; try discriminate;
    try (apply free_attr in Fr; rewrite Fr; reflexivity);
    try (apply free_elem in Fr; rewrite Fr; simpl; apply negb_true_iff in H; rewrite ?H; reflexivity);
    try (apply free_elem in Fr; rewrite Fr; reflexivity).
Qed.

Lemma dec_into_never classes fuel cid olds t :
  (forall c, lookup classes cid = Some c -> length olds = length (c_props c)) ->
  dec_into keep_never classes fuel cid olds t = dec classes fuel cid t.
Proof.
  destruct fuel; simpl; auto. intros L. destruct (lookup classes cid) as [c|]; auto.
  now rewrite update_all_never by (apply L; reflexivity).
Qed.

(* write a value, read the document into ANY instance of the class: the value *)
Lemma written_into_any_instance classes (Hwf : forall c, In c classes -> wf_slots c) n cid fs tag t olds :
  valid classes n (VStruct cid fs) -> enc classes n (VStruct cid fs) tag = Some t -> length olds = length fs ->
  dec_into keep_never classes n cid olds t = Some (VStruct cid fs).
Proof.
  intros V E L. rewrite dec_into_never; [exact (enc_dec classes Hwf n cid fs tag t V E)|].
  intros c Lc. now rewrite (valid_length classes n cid fs c V Lc).
Qed.

Lemma body_fresh : forall bodies n, map e_body (fresh n bodies) = bodies.
Proof. induction bodies as [|b r IH]; intros n; simpl; auto. now rewrite IH. Qed.

(* Copy: the write appends one document with the content of the value; everything else is untouched *)
Lemma write_pure w :
  w_docs (step Copy w OWrite) = w_docs w ++ [fresh (w_next w) (map e_body (w_val w))] /\
  w_val (step Copy w OWrite) = w_val w /\
  render (step Copy w OWrite) = (fst (render w) ++ [snd (render w)], snd (render w)).
Proof.
  simpl. repeat split. unfold render. simpl. rewrite map_app. simpl. now rewrite body_fresh.
Qed.

Lemma second_write_identical_docs w :
  fst (render (step Copy (step Copy w OWrite) OWrite)) = fst (render w) ++ [snd (render w); snd (render w)] /\
  snd (render (step Copy (step Copy w OWrite) OWrite)) = snd (render w).
Proof.
  destruct (write_pure w) as (_ & _ & R1). destruct (write_pure (step Copy w OWrite)) as (_ & _ & R2).
  rewrite R2, R1. simpl. now rewrite <- app_assoc.
Qed.

(* Copy: no operation ever changes a document that exists (not even the identity of its elements) *)
Lemma step_copy_docs w o : exists more, w_docs (step Copy w o) = w_docs w ++ more.
Proof.
  destruct o; simpl;
    [exists []; now rewrite app_nil_r|eexists; reflexivity|exists []; now rewrite app_nil_r|eexists; reflexivity].
Qed.

Lemma exec_copy_docs : forall ops w, exists more, w_docs (exec Copy w ops) = w_docs w ++ more.
Proof.
  induction ops as [|o r IH]; intros w; simpl.
  - exists []. now rewrite app_nil_r.
  - destruct (IH (step Copy w o)) as (m2 & E2). destruct (step_copy_docs w o) as (m1 & E1).
    exists (m1 ++ m2). now rewrite E2, E1, app_assoc.
Qed.

Lemma documents_never_change ops w d : (d < length (w_docs w))%nat ->
  nth d (fst (render (exec Copy w ops))) [] = nth d (fst (render w)) [].
Proof.
  intros L. destruct (exec_copy_docs ops w) as (more & E). unfold render. simpl. rewrite E, map_app.
  apply app_nth1. now rewrite map_length.
Qed.

(* ... so a value read from the first written document after any number of further operations is the value written *)
Lemma read_back_after ops w :
  let w1 := step Copy w OWrite in
  snd (render (step Copy (exec Copy w1 ops) (ORead (length (w_docs w))))) = snd (render w).
Proof.
  intros w1. unfold render at 1. simpl.
  destruct (exec_copy_docs ops w1) as (more & E). rewrite E. subst w1. simpl.
  rewrite <- app_assoc. simpl. rewrite nth_middle. apply body_fresh.
Qed.

(* Move (what sub_node.extend(value) does): the second write empties the first document, and the first write of a
   value that was read from a document empties that document *)
Lemma move_refuted b :
  let w1 := exec Move world0 [ONew [b]; OWrite] in
  fst (render w1) = [[b]] /\ fst (render (step Move w1 OWrite)) = [[]; [b]].
Proof. simpl. unfold render, detach, has_id. simpl. auto. Qed.

Lemma move_source_refuted b :
  let w0 := exec Move world0 [OParse [b]] in        (* a parsed document with one extension element *)
  fst (render w0) = [[b]] /\ fst (render (exec Move w0 [ORead 0; OWrite])) = [[]; [b]].
Proof. simpl. unfold render, detach, has_id. simpl. auto. Qed.

(* whatever is stored is what attribute access returns (the implied value never shadows a present value) *)
Lemma public_get_present fz p implied raw : raw <> VNone -> public_get GetIfNone fz p implied raw = raw.
Proof.
  intros H. unfold public_get.
  assert (G : match implied, raw with Some i, VNone => i | _, _ => raw end = raw) by (destruct implied, raw; congruence).
  destruct (p_kind p); simpl; try reflexivity; try exact G. destruct raw; congruence.
Qed.

Lemma public_all_present fz : forall ps impls raws, length impls = length ps -> length raws = length ps ->
  Forall2 (fun raw pub => raw <> VNone -> pub = raw) raws (public_all GetIfNone fz ps impls raws).
Proof.
  induction ps as [|p ps IH]; intros [|i impls] [|r raws] Li Lr; simpl in *; try discriminate; constructor.
  - intros H. now apply public_get_present.
  - apply IH; congruence.
Qed.

(* the value written, read back, seen through attribute access: every member that carries a value shows that value *)
Lemma public_roundtrip classes (Hwf : forall c, In c classes -> wf_slots c) fz n cid fs tag t c impls :
  valid classes n (VStruct cid fs) -> enc classes n (VStruct cid fs) tag = Some t -> lookup classes cid = Some c ->
  length impls = length (c_props c) ->
  exists fs', dec classes n cid t = Some (VStruct cid fs') /\
              Forall2 (fun w pub => w <> VNone -> pub = w) fs (public_all GetIfNone fz (c_props c) impls fs').
Proof.
  intros V E Lc Li. exists fs. split; [exact (enc_dec classes Hwf n cid fs tag t V E)|].
  apply public_all_present; [exact Li|]. symmetry. exact (valid_length classes n cid fs c V Lc).
Qed.

