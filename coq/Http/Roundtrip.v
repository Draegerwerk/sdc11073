(* End-to-end statement for C17: what the sender produces (optional content coding, then either
   chunked framing or Content-Length) is decoded to the original bytes by the receiver, on the
   request path (SoapClient._send_soap_request -> HTTPReader.read_request_body) and on the
   response path (DispatchingRequestHandler.do_POST -> http.client -> HTTPReader.read_response_body).

   The compressors (zlib, lz4) and http.client's own chunk reader are not modelled: they enter as
   Section variables with the laws below as explicit premises of the theorems; the harness
   validates those laws differentially on every run (streams "codec" and "mk_chunks"). *)
From Coq Require Import List NArith Lia.
From SDC Require Import Http.Chunk Http.Chunk_Proofs.
Import ListNotations.
Open Scope N_scope.

Section Coding.
  Variable hmax : nat.
  Variable avail : list bytes.
  (* coding name -> payload -> result; None = the library raises *)
  Variable compress decompress : bytes -> bytes -> option bytes.
  Hypothesis codec_law :
    forall c b, In c avail -> exists z, compress c b = Some z /\ decompress c z = Some b.

  (* http.client's reader of chunked bodies, specified only on the strict grammar *)
  Variable client_dechunk : bytes -> option bytes.
  Hypothesis client_dechunk_ok :
    forall w b, chunked (hmax - 2) w b -> client_dechunk w = Some b.

  (* sender: coding = the chosen content coding (None: identity), chunk = configured chunk size *)
  Definition encode (coding : option bytes) (chunk : N) (xml : bytes) : option (req_headers * bytes) :=
    match (match coding with None => Some xml | Some c => compress c xml end) with
    | None => None
    | Some payload =>
        if 0 <? chunk then Some (mkH true CLAbsent coding, mk_chunks chunk payload)
        else Some (mkH false (CLNum (lenN payload)) coding, payload)
    end.

  Definition finish (r : rres) : option bytes :=
    match r with
    | RBody (Some b) _ => Some b
    | RDecode enc (Some z) _ => decompress enc z
    | _ => None
    end.

  Definition decode_request (h : req_headers) (wire : bytes) : option bytes :=
    let s := uncapped wire in
    finish (read_request_body hmax avail (fuel_for s) h s).

  Definition decode_response (h : req_headers) (wire : bytes) : option bytes :=
    match (if h_chunked h then client_dechunk wire else Some wire) with
    | None => None
    | Some payload => finish (read_response_body avail h (uncapped payload))
    end.

  Definition coding_ok (coding : option bytes) : Prop :=
    match coding with Some c => In c avail | None => True end.

  Lemma finish_decode_step ch cl coding payload xml s :
    coding_ok coding ->
    match coding with None => payload = xml | Some c => decompress c payload = Some xml end ->
    finish (decode_step avail (mkH ch cl coding) (Some payload) s) = Some xml.
  Proof.
    intros Hok P. unfold decode_step. simpl h_ce. destruct coding as [c|]; simpl; [|now subst].
    now rewrite (proj2 (mem_bytes_In c avail) Hok).
  Qed.

  (* what the sender put on the wire: a payload that decodes to [xml], framed in one of two ways *)
  Lemma encode_inv coding chunk xml h wire :
    coding_ok coding -> encode coding chunk xml = Some (h, wire) ->
    exists payload,
      match coding with None => payload = xml | Some c => decompress c payload = Some xml end /\
      (h, wire) = if 0 <? chunk then (mkH true CLAbsent coding, mk_chunks chunk payload)
                  else (mkH false (CLNum (lenN payload)) coding, payload).
  Proof.
    unfold encode. intros Hok E.
    destruct coding as [c|].
    1: destruct (codec_law c xml Hok) as (z & Z1 & Z2); rewrite Z1 in E; exists z; split; [exact Z2|].
    2: exists xml; split; [reflexivity|].
    all: destruct (0 <? chunk); now injection E as <- <-.
  Qed.

  Theorem request_roundtrip coding chunk xml h wire :
    chunk < 16 ^ N.of_nat (hmax - 2) -> coding_ok coding ->
    encode coding chunk xml = Some (h, wire) ->
    decode_request h wire = Some xml.
  Proof.
    intros Hc Hok E. destruct (encode_inv _ _ _ _ _ Hok E) as (payload & P & W).
    unfold decode_request, read_request_body.
    destruct (0 <? chunk) eqn:C; injection W as -> ->; simpl h_chunked; simpl h_cl; cbv iota.
    - assert (Hm : (hmax - 2 <> 0)%nat) by (intros Z; rewrite Z in Hc; simpl in Hc; lia).
      pose proof (dechunk_mk_chunks hmax chunk payload [] ltac:(lia) ltac:(lia) ltac:(lia)) as D.
      simpl in D. rewrite app_nil_r in D. rewrite D. now apply finish_decode_step.
    - rewrite sread_uncapped_all. now apply finish_decode_step.
  Qed.

  Theorem response_roundtrip coding chunk xml h wire :
    chunk < 16 ^ N.of_nat (hmax - 2) -> coding_ok coding ->
    encode coding chunk xml = Some (h, wire) ->
    decode_response h wire = Some xml.
  Proof.
    intros Hc Hok E. destruct (encode_inv _ _ _ _ _ Hok E) as (payload & P & W).
    unfold decode_response, read_response_body.
    destruct (0 <? chunk) eqn:C; injection W as -> ->; simpl h_chunked; simpl h_cl; cbv iota.
    - assert (Hm : (hmax - 2 <> 0)%nat) by (intros Z; rewrite Z in Hc; simpl in Hc; lia).
      rewrite (client_dechunk_ok (mk_chunks chunk payload) payload) by (apply mk_chunks_chunked; lia).
      now apply finish_decode_step.
    - rewrite sread_uncapped_all. now apply finish_decode_step.
  Qed.

  (* a body that carries a Content-Encoding is never returned raw: whatever is returned is the
     named decompressor's answer, so a payload it rejects (corrupt, foreign) is rejected *)
  Theorem coded_never_raw h wire enc :
    h_ce h = Some enc ->
    forall b, decode_request h wire = Some b ->
    exists z, decompress enc z = Some b.
  Proof.
    intros He b H. unfold decode_request in H.
    pose proof (request_body_coded hmax avail (fuel_for (uncapped wire)) h (uncapped wire) enc He) as C.
    destruct (read_request_body hmax avail (fuel_for (uncapped wire)) h (uncapped wire)) as [ob s|e ob s| |];
      try discriminate; [contradiction|].
    destruct C as [-> _]. destruct ob as [z|]; [eauto | discriminate].
  Qed.
End Coding.
