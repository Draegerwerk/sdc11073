(* Proofs about Http.Chunk: hex round trip, framing grammar, decoder completeness and soundness,
   termination of the readers.

   Each reader loop ([read_n], [dechunk], and the framing phase [read_frame] of read_request_body)
   gets one lemma [*_spec] that says, by one induction, what every outcome means: a success consumed
   exactly what it returns, and running out of fuel is only possible with no more fuel than bytes. *)
From Coq Require Import List NArith Bool Lia ZifyBool Arith.
From SDC Require Import Http.Chunk.
Import ListNotations.
Open Scope N_scope.

Lemma mod16_lt n : n mod 16 < 16.
Proof. apply N.mod_lt. lia. Qed.

Lemma takeN_dropN_firstn {A} : forall (l : list A) n,
  takeN n l = firstn (N.to_nat n) l /\ dropN n l = skipn (N.to_nat n) l.
Proof.
  induction l as [|x l IH]; intros n; simpl.
  - now destruct (N.to_nat n).
  - destruct (N.eqb_spec n 0) as [->|Hn]; [now split|].
    replace (N.to_nat n) with (S (N.to_nat (N.pred n))) by lia.
    now destruct (IH (N.pred n)) as [-> ->].
Qed.

Lemma takeN_dropN {A} (l : list A) n : takeN n l ++ dropN n l = l.
Proof. destruct (takeN_dropN_firstn l n) as [-> ->]. apply firstn_skipn. Qed.

Lemma lenN_cons {A} (x : A) l : lenN (x :: l) = 1 + lenN l.
Proof. unfold lenN. simpl length. lia. Qed.

Lemma lenN_app {A} (a b : list A) : lenN (a ++ b) = lenN a + lenN b.
Proof. unfold lenN. rewrite app_length. lia. Qed.

Lemma lenN_takeN {A} (l : list A) n : lenN (takeN n l) = N.min n (lenN l).
Proof. unfold lenN. destruct (takeN_dropN_firstn l n) as [-> _]. rewrite firstn_length. lia. Qed.

Lemma takeN_nil_inv {A} : forall (l : list A) n, 0 < n -> takeN n l = [] -> l = [].
Proof.
  intros [|x l] n H E; [reflexivity|]. simpl in E.
  replace (n =? 0) with false in E by lia. discriminate.
Qed.

Lemma hex_value_digit d : d < 16 -> hex_value (hex_digit d) = Some d.
Proof.
  intros H. unfold hex_digit, hex_value.
  destruct (d <? 10) eqn:E.
  - replace ((48 <=? 48 + d) && (48 + d <=? 57)) with true by lia. f_equal. lia.
  - replace ((48 <=? 87 + d) && (87 + d <=? 57)) with false by lia.
    replace ((97 <=? 87 + d) && (87 + d <=? 102)) with true by lia. f_equal. lia.
Qed.

Definition is_hexb (c : N) : bool := match hex_value c with Some _ => true | None => false end.

Definition hexs : bytes -> Prop := Forall (fun c => is_hexb c = true).

(* the digits come out most significant first, so reading them back from 0 rebuilds [n] on top of
   whatever [acc] holds *)
Lemma from_hex_aux_to_hex_aux : forall fuel n acc,
  N.log2 n < N.of_nat fuel -> from_hex_aux (to_hex_aux fuel n acc) 0 = from_hex_aux acc n.
Proof.
  induction fuel as [|f IH]; intros n acc H; [lia|].
  simpl to_hex_aux. destruct (n <? 16) eqn:E.
  - cbn [from_hex_aux]. rewrite hex_value_digit by apply mod16_lt.
    f_equal. rewrite N.mod_small by lia. reflexivity.
  - rewrite IH.
    + cbn [from_hex_aux]. rewrite hex_value_digit by apply mod16_lt.
      f_equal. pose proof (N.div_mod n 16). lia.
    + change 16 with (2 ^ 4). rewrite <- N.shiftr_div_pow2, N.log2_shiftr.
      assert (4 <= N.log2 n) by (apply N.log2_le_pow2; simpl; lia). lia.
Qed.

Lemma to_hex_aux_nonempty : forall fuel n acc, fuel <> O -> to_hex_aux fuel n acc <> [].
Proof.
  induction fuel as [|f IH]; intros n acc H; [congruence|].
  simpl. destruct (n <? 16); [discriminate|].
  destruct f as [|f']; [simpl; discriminate|]. apply IH. discriminate.
Qed.

Lemma to_hex_nonempty n : to_hex n <> [].
Proof. apply to_hex_aux_nonempty. discriminate. Qed.

Lemma from_hex_to_hex n : from_hex (to_hex n) = Some n.
Proof.
  unfold from_hex. destruct (to_hex n) eqn:E; [now apply to_hex_nonempty in E|].
  rewrite <- E. unfold to_hex. rewrite from_hex_aux_to_hex_aux by lia. reflexivity.
Qed.

Lemma to_hex_aux_length : forall fuel n acc k,
  (1 <= k)%nat -> n < 16 ^ N.of_nat k ->
  (length (to_hex_aux fuel n acc) <= k + length acc)%nat.
Proof.
  induction fuel as [|f IH]; intros n acc k Hk H; simpl; [lia|].
  destruct (n <? 16) eqn:E; [simpl; lia|].
  destruct k as [|k]; [lia|]. destruct k as [|k].
  { simpl in H. lia. }
  assert (Hd : n / 16 < 16 ^ N.of_nat (S k)).
  { apply N.div_lt_upper_bound; [lia|].
    rewrite Nat2N.inj_succ with (n := S k), N.pow_succ_r' in H. exact H. }
  specialize (IH (n / 16) (hex_digit (n mod 16) :: acc) (S k) ltac:(lia) Hd).
  simpl length in IH. lia.
Qed.

Lemma to_hex_length n k : (1 <= k)%nat -> n < 16 ^ N.of_nat k -> (length (to_hex n) <= k)%nat.
Proof.
  intros Hk H. pose proof (to_hex_aux_length (S (N.to_nat (N.log2 n))) n [] k Hk H) as L.
  unfold to_hex. simpl in L. rewrite Nat.add_0_r in L. exact L.
Qed.

Lemma from_hex_aux_hex : forall l a n, from_hex_aux l a = Some n -> hexs l.
Proof.
  induction l as [|c l IH]; intros a n H; [constructor|].
  simpl in H. destruct (hex_value c) eqn:E; [|discriminate].
  constructor; [unfold is_hexb; now rewrite E | exact (IH _ _ H)].
Qed.

Lemma from_hex_hex l n : from_hex l = Some n -> hexs l.
Proof. unfold from_hex. destruct l; [discriminate | apply from_hex_aux_hex]. Qed.

Lemma to_hex_hex n : Forall (fun c => is_hexb c = true) (to_hex n).
Proof. exact (from_hex_hex _ n (from_hex_to_hex n)). Qed.

Lemma is_hexb_range c : is_hexb c = true -> 48 <= c <= 102 /\ c <> 59.
Proof.
  unfold is_hexb, hex_value.
  destruct ((48 <=? c) && (c <=? 57)) eqn:E1; [lia|].
  destruct ((97 <=? c) && (c <=? 102)) eqn:E2; [lia|].
  destruct ((65 <=? c) && (c <=? 70)) eqn:E3; [lia|discriminate].
Qed.

Lemma take_until_hex l : hexs l -> take_until 59 l = l.
Proof.
  induction 1 as [|c l Hc _ IH]; simpl; [reflexivity|].
  apply is_hexb_range in Hc. replace (c =? 59) with false by lia. now rewrite IH.
Qed.

Lemma drop_ws_hex l : hexs l -> drop_ws l = l.
Proof.
  destruct 1 as [|c l Hc _]; simpl; [reflexivity|].
  apply is_hexb_range in Hc. unfold is_ws. now replace ((9 <=? c) && (c <=? 13) || (c =? 32)) with false by lia.
Qed.

Lemma strip_hex l : hexs l -> strip l = l.
Proof.
  intros H. unfold strip. rewrite (drop_ws_hex l H).
  rewrite drop_ws_hex; [apply rev_involutive | now apply Forall_rev].
Qed.

Lemma parse_size_hex h n : from_hex h = Some n -> parse_size h = Some n.
Proof.
  intros H. pose proof (from_hex_hex _ _ H) as Hh.
  unfold parse_size. now rewrite take_until_hex, strip_hex.
Qed.

Lemma parse_size_to_hex n : parse_size (to_hex n) = Some n.
Proof. apply parse_size_hex, from_hex_to_hex. Qed.

Lemma hex_no_lf l : hexs l -> Forall (fun c => c <> 10) l.
Proof. apply Forall_impl. intros c H. apply is_hexb_range in H. lia. Qed.

(* [s'] is [s] after [c] was read from it *)
Definition consumes (s : stream) (c : bytes) (s' : stream) : Prop := sdata s = c ++ sdata s'.

Lemma consumes_app s c s1 d s2 : consumes s c s1 -> consumes s1 d s2 -> consumes s (c ++ d) s2.
Proof. unfold consumes. intros -> ->. apply app_assoc. Qed.

Lemma consumes_length s c s' : consumes s c s' -> length (sdata s) = (length c + length (sdata s'))%nat.
Proof. unfold consumes. intros ->. apply app_length. Qed.

Lemma sread_split n s c s' : sread n s = (c, s') -> consumes s c s' /\ lenN c <= n.
Proof.
  unfold sread. intros H. inversion H; subst; clear H. split.
  - symmetry. apply takeN_dropN.
  - rewrite lenN_takeN. destruct (scaps s); lia.
Qed.

Lemma sread_progress n s c s' : sread n s = (c, s') -> 0 < n -> sdata s <> [] -> c <> [].
Proof.
  unfold sread. intros H Hn Hd. inversion H; subst; clear H. intros E.
  apply takeN_nil_inv in E; [congruence|]. destruct (scaps s); lia.
Qed.

Lemma sread_uncapped n d : sread n (uncapped d) = (takeN n d, uncapped (dropN n d)).
Proof. reflexivity. Qed.

Lemma sread_uncapped_app a b : sread (lenN a) (uncapped (a ++ b)) = (a, uncapped b).
Proof.
  rewrite sread_uncapped. destruct (takeN_dropN_firstn (a ++ b) (lenN a)) as [-> ->].
  unfold lenN. rewrite Nat2N.id, firstn_app, skipn_app, Nat.sub_diag, firstn_all, skipn_all.
  simpl. now rewrite app_nil_r.
Qed.

Lemma sread_uncapped_all b : sread (lenN b) (uncapped b) = (b, uncapped []).
Proof. pose proof (sread_uncapped_app b []) as H. now rewrite app_nil_r in H. Qed.

Lemma sread1_uncapped_cons x l : sread 1 (uncapped (x :: l)) = ([x], uncapped l).
Proof. exact (sread_uncapped_app [x] l). Qed.

Lemma sread_empty n caps : sread n (mkS [] caps) = ([], mkS [] (tl caps)).
Proof. reflexivity. Qed.

Opaque sread.

(* what was consumed is the returned line followed by CRLF *)
Lemma read_until_sound : forall k rbuf s h s1,
  read_until k rbuf s = (Some h, s1) ->
  exists c, consumes s c s1 /\ rev rbuf ++ c = h ++ crlf.
Proof.
  induction k as [|k IH]; intros rbuf s h s1 H; simpl in H; [discriminate|].
  destruct (sread 1 s) as [c s'] eqn:Es. apply sread_split in Es as [Hd Hl].
  destruct c as [|b c]; [discriminate|].
  assert (c = []) as -> by (destruct c; [reflexivity | rewrite !lenN_cons in Hl; lia]).
  destruct rbuf as [|p rest]; [|destruct ((b =? 10) && (p =? 13)) eqn:E].
  2:{ injection H as <- <-. exists [b]. split; [exact Hd|].
      apply andb_prop in E as [->%N.eqb_eq ->%N.eqb_eq]. simpl. now rewrite <- app_assoc. }
  all: apply IH in H as (c & H1 & H2); exists ([b] ++ c); split; [exact (consumes_app _ _ _ _ _ Hd H1)|];
    simpl in H2 |- *; rewrite <- H2, <- ?app_assoc; reflexivity.
Qed.

(* a byte other than LF goes on the buffer *)
Lemma read_until_push k rbuf b l : b <> 10 ->
  read_until (S k) rbuf (uncapped (b :: l)) = read_until k (b :: rbuf) (uncapped l).
Proof.
  intros Hb. cbn [read_until]. rewrite sread1_uncapped_cons. destruct rbuf as [|p r]; [reflexivity|].
  now replace ((b =? 10) && (p =? 13)) with false by lia.
Qed.

(* completeness on an uncapped stream: a line without LF, followed by CRLF, within k bytes *)
Lemma read_until_line : forall pre k rbuf rest,
  Forall (fun c => c <> 10) pre -> (length pre + 2 <= k)%nat ->
  read_until k rbuf (uncapped (pre ++ crlf ++ rest)) = (Some (rev rbuf ++ pre), uncapped rest).
Proof.
  induction pre as [|c pre IH]; intros k rbuf rest Hp Hk; cbn [length] in Hk.
  - destruct k as [|[|k]]; try lia. rewrite app_nil_r. cbn [app crlf]. rewrite read_until_push by discriminate.
    cbn [read_until]. now rewrite sread1_uncapped_cons.
  - destruct k as [|k]; [lia|]. inversion Hp; subst. cbn [app]. rewrite read_until_push by assumption.
    rewrite IH by (auto; lia). cbn [rev]. now rewrite <- app_assoc.
Qed.

Lemma read_n_spec : forall fuel n s,
  match read_n fuel n s with
  | NData d s' => consumes s d s' /\ lenN d = n
  | NEof _ => True
  | NFuel => (fuel <= length (sdata s))%nat
  end.
Proof.
  induction fuel as [|f IH]; intros n s; cbn [read_n]; [apply Nat.le_0_l|].
  destruct (N.eqb_spec n 0) as [->|Hn]; [now split|].
  destruct (sread n s) as [c s1] eqn:Es. apply sread_split in Es as [Hd Hl].
  destruct c as [|b c]; [exact I|].
  specialize (IH (n - lenN (b :: c)) s1).
  destruct (read_n f (n - lenN (b :: c)) s1) as [d s2|s2|].
  - destruct IH as [H1 H2]. split; [exact (consumes_app _ _ _ _ _ Hd H1) | rewrite lenN_app; lia].
  - exact I.
  - apply consumes_length in Hd. simpl in Hd. lia.
Qed.

Lemma read_n_uncapped_exact : forall fuel d rest,
  (2 <= fuel)%nat -> read_n fuel (lenN d) (uncapped (d ++ rest)) = NData d (uncapped rest).
Proof.
  intros fuel d rest Hf. destruct fuel as [|[|f]]; try lia.
  destruct d as [|b d]; [reflexivity|].
  cbn [read_n]. rewrite sread_uncapped_app, N.sub_diag, lenN_cons.
  replace (1 + lenN d =? 0) with false by lia. rewrite N.eqb_refl. cbn. now rewrite app_nil_r.
Qed.

(* the loop as found: at end of data no amount of fuel is enough *)
Lemma read_n_found_spins : forall fuel n caps, 0 < n -> read_n_found fuel n (mkS [] caps) = NFuel.
Proof.
  induction fuel as [|f IH]; intros n caps H; [reflexivity|].
  simpl. replace (n =? 0) with false by lia.
  rewrite sread_empty, N.sub_0_r.
  rewrite IH by assumption. reflexivity.
Qed.

(* strict HTTP/1.1 chunked body without extensions and trailers, chunk-size lines of at most m digits *)
Inductive chunked (m : nat) : bytes -> bytes -> Prop :=
| ch_last : forall h,
    from_hex h = Some 0 -> (length h <= m)%nat ->
    chunked m (h ++ crlf ++ crlf) []
| ch_cons : forall h d w b,
    from_hex h = Some (lenN d) -> d <> [] -> (length h <= m)%nat ->
    chunked m w b ->
    chunked m (h ++ crlf ++ d ++ crlf ++ w) (d ++ b).

(* what the reader accepts: any size line that parse_size understands (white space, extensions) *)
Inductive chunked_any : bytes -> bytes -> Prop :=
| ca_last : forall h,
    parse_size h = Some 0 -> chunked_any (h ++ crlf ++ crlf) []
| ca_cons : forall h d w b,
    parse_size h = Some (lenN d) -> d <> [] -> chunked_any w b ->
    chunked_any (h ++ crlf ++ d ++ crlf ++ w) (d ++ b).

Lemma chunked_chunked_any m w b : chunked m w b -> chunked_any w b.
Proof. induction 1; [apply ca_last | apply ca_cons]; auto using parse_size_hex. Qed.

(* mk_chunks produces the strict grammar *)
Lemma mk_chunks_aux_chunked : forall fuel n tail m,
  (length tail < fuel)%nat -> 1 <= n -> (1 <= m)%nat -> N.min n (lenN tail) < 16 ^ N.of_nat m ->
  chunked m (mk_chunks_aux fuel n tail) tail.
Proof.
  induction fuel as [|f IH]; intros n tail m Hf Hn Hm Hb; [lia|].
  cbn [mk_chunks_aux].
  destruct (takeN n tail) as [|x hd] eqn:Eh.
  - apply takeN_nil_inv in Eh; [|lia]. subst tail.
    change (to_hex (lenN []) ++ crlf ++ [] ++ crlf ++ []) with (to_hex 0 ++ crlf ++ crlf).
    apply ch_last; [apply from_hex_to_hex|].
    apply to_hex_length; [lia | now rewrite N.min_0_r in Hb].
  - pose proof (takeN_dropN tail n) as Hsplit. rewrite Eh in Hsplit.
    pose proof (lenN_takeN tail n) as Hl. rewrite Eh in Hl.
    (* name the remainder, so that [tail] can be replaced by "first chunk ++ remainder" everywhere *)
    remember (dropN n tail) as t eqn:Et. clear Et Eh. subst tail.
    rewrite app_length in Hf. simpl in Hf.
    apply ch_cons; [apply from_hex_to_hex | discriminate | apply to_hex_length; [lia | now rewrite Hl] |].
    apply IH; try assumption; [lia|]. rewrite lenN_app in Hb. lia.
Qed.

Lemma mk_chunks_chunked n body m :
  1 <= n -> (1 <= m)%nat -> N.min n (lenN body) < 16 ^ N.of_nat m -> chunked m (mk_chunks n body) body.
Proof. intros. apply mk_chunks_aux_chunked; auto. Qed.

Lemma bytes_eqb_eq : forall a b, bytes_eqb a b = true -> a = b.
Proof.
  induction a as [|x a IH]; intros [|y b] H; simpl in H; try discriminate; [reflexivity|].
  apply andb_prop in H as [H1 H2]. apply N.eqb_eq in H1. subst. f_equal. now apply IH.
Qed.

Lemma bytes_eqb_refl : forall a, bytes_eqb a a = true.
Proof. induction a as [|x a IH]; simpl; [reflexivity|]. now rewrite N.eqb_refl, IH. Qed.

(* one round of the decoder on a well-formed chunk ([cbn [dechunk_gen]] unfolds one round and leaves
   the arguments untouched) *)
Lemma dechunk_chunk hmax h d rest f :
  from_hex h = Some (lenN d) -> (length h + 2 <= hmax)%nat -> (2 <= f)%nat ->
  dechunk hmax (S f) (uncapped (h ++ crlf ++ d ++ crlf ++ rest)) =
  if lenN d =? 0 then DOk d (uncapped rest)
  else match dechunk hmax f (uncapped rest) with DOk b s => DOk (d ++ b) s | r => r end.
Proof.
  intros Hh Hl Hf. unfold dechunk. cbn [dechunk_gen].
  rewrite read_until_line by (try apply hex_no_lf, (from_hex_hex _ _ Hh); lia). cbn [rev app].
  rewrite (parse_size_hex _ _ Hh), read_n_uncapped_exact by lia.
  change 2 with (lenN crlf). now rewrite sread_uncapped_app, bytes_eqb_refl.
Qed.

Lemma dechunk_complete hmax : forall w b, chunked (hmax - 2) w b ->
  forall rest fuel, (length w < fuel)%nat ->
  dechunk hmax fuel (uncapped (w ++ rest)) = DOk b (uncapped rest).
Proof.
  induction 1 as [h Hh Hl | h d w b Hh Hd Hl Hw IH]; intros rest fuel Hf;
    assert (Hm : (2 <= hmax)%nat) by (destruct h; [discriminate Hh | simpl in Hl; lia]);
    rewrite !app_length in Hf; simpl length in Hf; (destruct fuel as [|f]; [lia|]); rewrite <- !app_assoc.
  - apply (dechunk_chunk hmax h [] rest f); [exact Hh | lia | lia].
  - rewrite dechunk_chunk by (auto; lia).
    destruct (N.eqb_spec (lenN d) 0) as [E|_]; [destruct d; [congruence | rewrite lenN_cons in E; lia]|].
    now rewrite IH by lia.
Qed.

Theorem dechunk_mk_chunks hmax n body rest :
  (3 <= hmax)%nat -> 1 <= n -> N.min n (lenN body) < 16 ^ N.of_nat (hmax - 2) ->
  let s := uncapped (mk_chunks n body ++ rest) in
  dechunk hmax (fuel_for s) s = DOk body (uncapped rest).
Proof.
  intros Hm Hn Hb s. unfold s, fuel_for. simpl sdata.
  apply dechunk_complete; [|rewrite app_length; lia].
  apply mk_chunks_chunked; auto. lia.
Qed.

(* no over-read, nothing invented, and fuel beyond the number of bytes is never used up *)
Lemma dechunk_spec hmax : forall fuel s,
  match dechunk hmax fuel s with
  | DOk b s' => exists w, consumes s w s' /\ chunked_any w b
  | DErr _ _ => True
  | DFuel => (fuel <= length (sdata s))%nat
  end.
Proof.
  induction fuel as [|f IH]; intros s; [apply Nat.le_0_l|].
  unfold dechunk. cbn [dechunk_gen]. fold (dechunk hmax).
  destruct (read_until hmax [] s) as [[h|] s1] eqn:Eu; [|exact I].
  apply read_until_sound in Eu as (c & Hc & Ec). simpl in Ec. subst c.
  destruct (parse_size h) as [n|] eqn:Ep; [|exact I].
  pose proof (read_n_spec f n s1) as Hn.
  destruct (read_n f n s1) as [d s2|s2|]; [destruct Hn as [Hd <-] | exact I |].
  2:{ apply consumes_length in Hc. rewrite app_length in Hc. simpl in Hc. lia. }
  destruct (sread 2 s2) as [c s3] eqn:Es. apply sread_split in Es as [Hs _].
  destruct (bytes_eqb c crlf) eqn:Ec; [|exact I]. apply bytes_eqb_eq in Ec. subst c.
  pose proof (consumes_app _ _ _ _ _ Hc (consumes_app _ _ _ _ _ Hd Hs)) as H3.
  destruct (N.eqb_spec (lenN d) 0) as [En|En].
  - assert (d = []) as -> by (destruct d; [reflexivity | rewrite lenN_cons in En; lia]).
    exists (h ++ crlf ++ crlf). rewrite <- !app_assoc in H3. split; [exact H3 | now apply ca_last].
  - specialize (IH s3). destruct (dechunk hmax f s3) as [b s4| |]; [|exact I|].
    + destruct IH as (w & Hw & Cw). exists (h ++ crlf ++ d ++ crlf ++ w). split.
      * pose proof (consumes_app _ _ _ _ _ H3 Hw) as H4. now rewrite <- !app_assoc in H4.
      * apply ca_cons; [exact Ep | now intros -> | exact Cw].
    + apply consumes_length in H3. rewrite !app_length in H3. simpl in H3. lia.
Qed.

Lemma dechunk_found_spins hmax : (3 <= hmax)%nat ->
  forall fuel, dechunk_found hmax fuel (uncapped [53; 13; 10; 97; 98; 99]) = DFuel.
Proof.
  intros Hm fuel. destruct fuel as [|f]; [reflexivity|].
  unfold dechunk_found. cbn [dechunk_gen].
  change [53; 13; 10; 97; 98; 99] with ([53] ++ crlf ++ [97; 98; 99]).
  rewrite read_until_line; [|repeat constructor; discriminate|simpl; lia].
  change (parse_size (rev [] ++ [53])) with (Some 5).
  destruct f as [|f]; [reflexivity|].
  cbn [read_n_found]. change (5 =? 0) with false. cbv iota.
  rewrite sread_uncapped. change (takeN 5 [97; 98; 99]) with [97; 98; 99].
  change (dropN 5 [97; 98; 99]) with (@nil N). unfold uncapped.
  rewrite read_n_found_spins by reflexivity. reflexivity.
Qed.

Lemma mem_bytes_In x l : mem_bytes x l = true <-> In x l.
Proof.
  induction l as [|y l IH]; simpl; [split; [discriminate|tauto]|].
  rewrite orb_true_iff, IH. split; intros [H|H]; auto.
  - left. symmetry. now apply bytes_eqb_eq.
  - left. subst. apply bytes_eqb_refl.
Qed.

(* the content coding decides what happens to a body, never which body or how much was read *)
Lemma decode_step_cases avail h :
  (h_ce h = None /\ forall b s, decode_step avail h b s = RBody b s) \/
  (exists enc, h_ce h = Some enc /\ In enc avail /\ forall b s, decode_step avail h b s = RDecode enc b s) \/
  (exists enc, h_ce h = Some enc /\ ~ In enc avail /\ forall b s, decode_step avail h b s = RErr EUnsupported s).
Proof.
  unfold decode_step. destruct (h_ce h) as [enc|]; [right | now left].
  destruct (mem_bytes enc avail) eqn:M; [left | right]; exists enc; repeat split; trivial.
  - now apply mem_bytes_In.
  - intros I. apply mem_bytes_In in I. congruence.
Qed.

(* a coding named in the header: the body is never returned raw, and handed to that decoder only *)
Lemma decode_step_coded avail h enc b s :
  h_ce h = Some enc ->
  match decode_step avail h b s with
  | RBody _ _ => False
  | RDecode e _ _ => e = enc /\ In enc avail
  | _ => True
  end.
Proof.
  intros He. unfold decode_step. rewrite He.
  destruct (mem_bytes enc avail) eqn:M; [split; [reflexivity | now apply mem_bytes_In] | exact I].
Qed.

(* the framing phase of read_request_body: Transfer-Encoding and Content-Length alone decide which
   bytes are the body; [decode_step] comes after it *)
Inductive frame :=
| FOk (b : option bytes) (rest : stream)
| FErr (e : err) (rest : stream)
| FFuel.

Definition read_frame (hmax fuel : nat) (h : req_headers) (s : stream) : frame :=
  if h_chunked h then
    match dechunk hmax fuel s with
    | DOk b s' => FOk (Some b) s'
    | DErr e s' => FErr e s'
    | DFuel => FFuel
    end
  else
    match h_cl h with
    | CLAbsent => FOk None s
    | CLNum n => let '(b, s') := sread n s in FOk (Some b) s'
    | CLNeg | CLBad => FErr EContentLength s
    end.

Lemma read_request_body_frame hmax avail fuel h s :
  read_request_body hmax avail fuel h s =
  match read_frame hmax fuel h s with
  | FOk b s' => decode_step avail h b s'
  | FErr e s' => RErr e s'
  | FFuel => RFuel
  end.
Proof.
  unfold read_request_body, read_frame.
  destruct (h_chunked h); [now destruct (dechunk hmax fuel s) | destruct (h_cl h) as [|n| |]; reflexivity].
Qed.

Definition consumed_ok (h : req_headers) (consumed : bytes) (b : option bytes) : Prop :=
  if h_chunked h then exists body, b = Some body /\ chunked_any consumed body
  else match h_cl h with
       | CLNum n => b = Some consumed /\ lenN consumed <= n
       | _ => b = None /\ consumed = []
       end.

Lemma read_frame_spec hmax fuel h s :
  match read_frame hmax fuel h s with
  | FOk b s' => exists c, consumes s c s' /\ consumed_ok h c b
  | FErr _ _ => True
  | FFuel => (fuel <= length (sdata s))%nat
  end.
Proof.
  unfold read_frame, consumed_ok. destruct (h_chunked h).
  - pose proof (dechunk_spec hmax fuel s) as S.
    destruct (dechunk hmax fuel s) as [b s'|e s'|]; [|exact I|exact S].
    destruct S as (w & Hw & Cw). eauto.
  - destruct (h_cl h) as [|n| |]; try exact I.
    + exists []. now split.
    + destruct (sread n s) as [c s'] eqn:Es. apply sread_split in Es as [Hc Hl]. eauto.
Qed.

Lemma request_terminates hmax avail h s :
  read_request_body hmax avail (fuel_for s) h s <> RFuel.
Proof.
  rewrite read_request_body_frame. pose proof (read_frame_spec hmax (fuel_for s) h s) as S.
  destruct (read_frame hmax (fuel_for s) h s); [|discriminate|unfold fuel_for in S; lia].
  destruct (decode_step_cases avail h) as [[_ D]|[(e & _ & _ & D)|(e & _ & _ & D)]]; rewrite D; discriminate.
Qed.

Lemma request_no_overread hmax avail fuel h s :
  forall b s', (read_request_body hmax avail fuel h s = RBody b s' \/
                exists enc, read_request_body hmax avail fuel h s = RDecode enc b s') ->
  exists consumed, consumes s consumed s' /\ consumed_ok h consumed b.
Proof.
  intros b s' H. rewrite read_request_body_frame in H.
  pose proof (read_frame_spec hmax fuel h s) as S.
  destruct (read_frame hmax fuel h s) as [b0 s0|e s0|]; [|destruct H as [H|[enc H]]; discriminate ..].
  assert (b0 = b /\ s0 = s') as [<- <-]; [|exact S].
  destruct (decode_step_cases avail h) as [[_ D]|[(e & _ & _ & D)|(e & _ & _ & D)]];
    rewrite D in H; destruct H as [H|[enc H]]; inversion H; auto.
Qed.

Lemma request_body_coded hmax avail fuel h s enc :
  h_ce h = Some enc ->
  match read_request_body hmax avail fuel h s with
  | RBody _ _ => False
  | RDecode e _ _ => e = enc /\ In enc avail
  | _ => True
  end.
Proof.
  intros He. rewrite read_request_body_frame.
  destruct (read_frame hmax fuel h s); [now apply decode_step_coded | exact I ..].
Qed.

Lemma response_body_coded avail h s enc :
  h_ce h = Some enc ->
  match read_response_body avail h s with
  | RBody _ _ => False
  | RDecode e _ _ => e = enc /\ In enc avail
  | _ => True
  end.
Proof.
  intros He. unfold read_response_body.
  destruct (h_cl h) as [|n| |]; try destruct (sread n s); now apply decode_step_coded.
Qed.

Transparent sread.
