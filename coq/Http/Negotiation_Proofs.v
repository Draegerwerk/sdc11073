(* Proofs about Http.Negotiation: the chosen coding was offered with q > 0, is enabled locally,
   and no enabled coding was offered with a higher quality. *)
From Coq Require Import List NArith ZArith Lia Sorting.Sorted.
From SDC Require Import Common.ListFacts Http.Chunk Http.Chunk_Proofs Http.Negotiation.
Import ListNotations.
Open Scope N_scope.

Lemma insert_desc_In x l y : In y (insert_desc x l) <-> In y (x :: l).
Proof.
  induction l as [|z l IH]; simpl; [tauto|].
  destruct (zkey (snd z) <? zkey (snd x))%Z; simpl; [tauto|]. rewrite IH. simpl. tauto.
Qed.

Lemma sort_desc_In y l : In y (sort_desc l) <-> In y l.
Proof. unfold sort_desc. rewrite (fold_insert_In _ insert_desc_In). simpl. tauto. Qed.

Definition ge_item (a b : item) : Prop := (zkey (snd b) <= zkey (snd a))%Z.

Lemma insert_desc_sorted x l : StronglySorted ge_item l -> StronglySorted ge_item (insert_desc x l).
Proof.
  induction 1 as [|z l Hs IH Hf]; simpl; [repeat constructor|].
  destruct (zkey (snd z) <? zkey (snd x))%Z eqn:E.
  - constructor; [constructor; assumption|].
    constructor; [unfold ge_item; lia|].
    rewrite Forall_forall in *. intros w Hw. specialize (Hf w Hw). unfold ge_item in *. lia.
  - constructor; [assumption|].
    rewrite Forall_forall in *. intros w Hw. apply insert_desc_In in Hw as [<-|Hw].
    + unfold ge_item. lia.
    + auto.
Qed.

Lemma sort_desc_sorted l : StronglySorted ge_item (sort_desc l).
Proof. unfold sort_desc. apply fold_inv; [intros acc x; apply insert_desc_sorted|constructor]. Qed.

Lemma choose_sound accepted enabled c :
  choose accepted enabled = Some c -> In c accepted /\ In c enabled.
Proof.
  unfold choose. intros H. apply find_some in H as [H1 H2]. split; [assumption|].
  now apply mem_bytes_In.
Qed.

Lemma choose_none accepted enabled :
  choose accepted enabled = None -> forall c, In c accepted -> ~ In c enabled.
Proof.
  unfold choose. intros H c Hc He. apply (find_none _ _ H) in Hc.
  apply mem_bytes_In in He. congruence.
Qed.

Lemma choose_best : forall sorted enabled c,
  StronglySorted ge_item sorted ->
  choose (map fst sorted) enabled = Some c ->
  exists q, In (c, q) sorted /\
            forall c' q', In (c', q') sorted -> In c' enabled -> (zkey q' <= zkey q)%Z.
Proof.
  induction sorted as [|[k v] r IH]; intros enabled c Hs H; [discriminate|].
  inversion Hs as [|? ? Hs' Hf]; subst. unfold choose in H. simpl in H.
  destruct (mem_bytes k enabled) eqn:M.
  - inversion H; subst. exists v. split; [left; reflexivity|].
    intros c' q' [E|Hin] _.
    + inversion E; subst. lia.
    + rewrite Forall_forall in Hf. specialize (Hf _ Hin). unfold ge_item in Hf. simpl in Hf. exact Hf.
  - destruct (IH enabled c Hs' H) as [q [Hq1 Hq2]]. exists q. split; [right; assumption|].
    intros c' q' [E|Hin] He.
    + inversion E; subst. apply mem_bytes_In in He. congruence.
    + eauto.
Qed.

Lemma accepted_of_In c items :
  In c (accepted_of items) <-> exists q, In (c, q) items /\ qpos q = true.
Proof.
  unfold accepted_of. rewrite in_map_iff. split.
  - intros [[k q] [E H]]. simpl in E. subst k. apply sort_desc_In, filter_In in H as [H1 H2].
    exists q. auto.
  - intros [q [H1 H2]]. exists (c, q). split; [reflexivity|].
    apply sort_desc_In, filter_In. auto.
Qed.

Lemma server_choice_items header enabled items :
  parse_items header = Some items ->
  server_choice header enabled = Some (choose (accepted_of items) enabled).
Proof. intros Hi. unfold server_choice, parse_header. now rewrite Hi. Qed.

Theorem server_choice_sound header enabled items c :
  parse_items header = Some items ->
  server_choice header enabled = Some (Some c) ->
  In c enabled /\
  exists q, In (c, q) items /\ qpos q = true /\
            forall c' q', In (c', q') items -> qpos q' = true -> In c' enabled -> (zkey q' <= zkey q)%Z.
Proof.
  intros Hi H. rewrite (server_choice_items _ _ _ Hi) in H. injection H as H'. unfold accepted_of in H'.
  destruct (choose_sound _ _ _ H') as [_ He]. split; [assumption|].
  destruct (choose_best _ _ _ (sort_desc_sorted _) H') as [q [Hq1 Hq2]].
  apply sort_desc_In, filter_In in Hq1 as [Hq1 Hq1']. simpl in Hq1'.
  exists q. split; [assumption|]. split; [assumption|].
  intros c' q' Hin Hp He'. apply (Hq2 c' q'); [|assumption].
  apply sort_desc_In, filter_In. auto.
Qed.

Lemma od_set_keys k v : forall l,
  map fst (od_set k v l) = if mem_bytes k (map fst l) then map fst l else map fst l ++ [k].
Proof.
  induction l as [|[k' v'] l IH]; simpl; [reflexivity|].
  destruct (bytes_eqb k k') eqn:E; simpl.
  - apply bytes_eqb_eq in E. subst. reflexivity.
  - rewrite IH. destruct (mem_bytes k (map fst l)); reflexivity.
Qed.

Lemma od_set_NoDup k v l : NoDup (map fst l) -> NoDup (map fst (od_set k v l)).
Proof.
  intros H. rewrite od_set_keys. destruct (mem_bytes k (map fst l)) eqn:M; [assumption|].
  apply NoDup_snoc; [assumption|].
  intros Hin. apply mem_bytes_In in Hin. congruence.
Qed.

Lemma parse_element_NoDup d x d' :
  NoDup (map fst d) -> parse_element d x = Some d' -> NoDup (map fst d').
Proof.
  unfold parse_element. intros H E.
  set (name := ustrip (hd [] (split 59 x))) in *.
  pose proof (od_set_NoDup name q_one d H) as H1.
  destruct (nth_opt (split 59 x) 1) as [p|]; [|inversion E; subst; assumption].
  destruct (nth_opt (split 61 p) 1) as [v|]; [|inversion E; subst; assumption].
  destruct (parse_q v) eqn:Q; inversion E; subst; auto using od_set_NoDup.
Qed.

Lemma parse_elements_NoDup : forall xs d d',
  NoDup (map fst d) -> parse_elements d xs = Some d' -> NoDup (map fst d').
Proof.
  induction xs as [|x xs IH]; intros d d' H E; simpl in E; [inversion E; subst; assumption|].
  destruct (parse_element d x) as [d1|] eqn:E1; [|discriminate].
  eapply IH; [|exact E]. eapply parse_element_NoDup; eauto.
Qed.

Lemma conn_choices_nth enabled hs i :
  nth_error (conn_choices enabled hs) i = option_map (fun h => server_choice h enabled) (nth_error hs i).
Proof. unfold conn_choices. apply nth_error_map. Qed.
