(* Proofs about Http.Connection: on a kept-alive connection every request is served on exactly its own
   body bytes - whatever the outcome (unknown path, unsupported coding, handler fault ...) - or the
   connection is closed. *)
From Coq Require Import List NArith Bool Lia.
From SDC Require Import Http.Chunk Http.Chunk_Proofs Http.Dispatch Http.Connection.
Import ListNotations.
Open Scope N_scope.

(* the body bytes [w] are exactly what the headers [h] announce *)
Definition framed (hmax : nat) (h : req_headers) (w : bytes) : Prop :=
  if h_chunked h then exists b, chunked (hmax - 2) w b
  else match h_cl h with
       | CLNum n => lenN w = n
       | CLAbsent => w = []
       | _ => True               (* rejected without reading a byte; the connection is closed *)
       end.

(* the framing phase on "own body ++ rest": the same body whatever follows, and "rest" is what is left *)
Lemma read_frame_framed hmax h w :
  framed hmax h w ->
  (exists b, forall rest, let s := uncapped (w ++ rest) in
             read_frame hmax (fuel_for s) h s = FOk b (uncapped rest)) \/
  (forall fuel s, read_frame hmax fuel h s = FErr EContentLength s).
Proof.
  intros F. unfold framed in F. unfold read_frame. destruct (h_chunked h).
  - destruct F as [b F]. left. exists (Some b). intros rest.
    rewrite (dechunk_complete hmax w b F rest); [reflexivity|].
    unfold fuel_for. simpl. rewrite app_length. lia.
  - destruct (h_cl h) as [|n| |]; [left; exists None | left; exists (Some w) | right ..]; try reflexivity.
    + now subst w.
    + subst n. intros rest. now rewrite sread_uncapped_app.
Qed.

(* one request: same answer and same close decision as on its own body alone; unless the connection is
   closed the stream stands exactly behind this request's body *)
Lemma step_framed hmax avail r w rest :
  framed hmax (c_hdr r) w ->
  exists a c s1 s0,
    step hmax avail r (uncapped (w ++ rest)) = (a, s1, c) /\
    step hmax avail r (uncapped w) = (a, s0, c) /\
    (c = false -> s1 = uncapped rest).
Proof.
  intros F. unfold step. destruct (c_post r) eqn:P.
  - rewrite !read_request_body_frame.
    destruct (read_frame_framed hmax (c_hdr r) w F) as [[b Fb]|Fe].
    + pose proof (Fb []) as F0. rewrite app_nil_r in F0. cbv zeta in F0. rewrite F0, (Fb rest).
      destruct (decode_step_cases avail (c_hdr r)) as [[_ D]|[(e & _ & _ & D)|(e & _ & _ & D)]]; rewrite !D;
        unfold answered; try destruct (c_decode_ok r); do 4 eexists; repeat split; eauto; discriminate.
    + rewrite !Fe. do 4 eexists. repeat split; eauto; discriminate.
  - do 4 eexists. repeat split; eauto.
    intros C. apply orb_false_elim in C as [C _]. apply orb_false_elim in C as [C _].
    unfold announces_body in C. apply orb_false_elim in C as [C1 C2].
    unfold framed in F. rewrite C1 in F. destruct (h_cl (c_hdr r)); try discriminate. subst w. reflexivity.
Qed.

(* the whole connection: the answers are those of every request served in isolation on its own body, up to
   the first request that closes the connection; and when no request closes it, the loop stands exactly
   behind the last request *)
Lemma run_conn_framed hmax avail :
  forall rs ws tail,
  Forall2 (fun r w => framed hmax (c_hdr r) w) rs ws ->
  let res := run_conn (step hmax avail) rs (uncapped (concat ws ++ tail)) in
  fst res = serve_isolated hmax avail rs ws /\
  (Forall (fun rw => snd (step hmax avail (fst rw) (uncapped (snd rw))) = false) (combine rs ws) ->
   snd res = uncapped tail).
Proof.
  intros rs ws tail F. induction F as [|r w rs ws Fr _ IH]; [now split|].
  simpl concat. rewrite <- app_assoc.
  destruct (step_framed hmax avail r w (concat ws ++ tail) Fr) as (a & c & s1 & s0 & E1 & E0 & Hc).
  simpl. rewrite E1, E0. destruct c.
  - split; [reflexivity|]. intros NC. inversion NC as [|? ? N1 _]. simpl in N1. rewrite E0 in N1. discriminate.
  - rewrite (Hc eq_refl).
    destruct (run_conn (step hmax avail) rs (uncapped (concat ws ++ tail))) as [answers s''].
    simpl in IH |- *. destruct IH as [IH1 IH2]. split; [now rewrite IH1|].
    intros NC. inversion NC. auto.
Qed.

(* reading the body only after the path lookup: a POST to an unknown path leaves its body in front of the
   next request although the connection stays open *)
Lemma step_lazy_misaligned hmax avail :
  exists r w rest,
    framed hmax (c_hdr r) w /\ w <> [] /\
    step_lazy hmax avail r (uncapped (w ++ rest)) = (Answer 404 KEmpty, uncapped (w ++ rest), false).
Proof.
  exists (mkC true (mkH false (CLNum 3) None) (mkIn true true PathUnknown (Answer 200 KResponse) true) true), [80; 79; 83], [84].
  split; [reflexivity|]. split; [discriminate|reflexivity].
Qed.

(* do_GET as found: a GET with a body keeps the connection and leaves the body in front of the next request *)
Lemma step_get_found_misaligned hmax avail :
  exists r w rest a,
    framed hmax (c_hdr r) w /\ w <> [] /\
    step_get_found hmax avail r (uncapped (w ++ rest)) = (a, uncapped (w ++ rest), false).
Proof.
  exists (mkC false (mkH false (CLNum 3) None) (mkIn true true PathKnown (Answer 200 KResponse) true) true), [80; 79; 83], [84].
  eexists. split; [reflexivity|]. split; [discriminate|reflexivity].
Qed.
