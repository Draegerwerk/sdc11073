(* Proofs about Http.Dispatch: every combination of stage outcomes is answered. *)
From Coq Require Import NArith.
From SDC Require Import Http.Dispatch.
Open Scope N_scope.

Definition is_answer (r : result) : Prop := exists s k, r = Answer s k.

Lemma do_post_total st :
  p_fault_reply st = true -> p_recover st = true ->
  exists s k, do_post st = Answer s k /\
              (k = KResponse \/ k = KFault) /\
              (k = KResponse <-> (p_parse st = SOk /\ p_dispatch st = SOk)) /\
              (k = KResponse -> s = 200).
Proof.
  intros F R. unfold do_post. rewrite F, R.
  destruct (p_parse st) as [|s|]; [destruct (p_dispatch st) as [|s|]|..];
    eexists; eexists; (split; [reflexivity|]); repeat split; auto; try discriminate;
    try (intros [H1 H2]; discriminate); try (intros H; discriminate).
Qed.

(* without the two side conditions the only other outcome is an exception that leaves do_post,
   and that is what the request handler's catch-all is for *)
Lemma do_post_cases st : is_answer (do_post st) \/ do_post st = Propagates.
Proof.
  unfold do_post, is_answer.
  destruct (p_parse st); [destruct (p_dispatch st)|..];
    try destruct (p_fault_reply st); try destruct (p_recover st); eauto.
Qed.

Lemma do_get_total st : g_urlparse st = true -> exists s k, do_get st = Answer s k /\ (s = 200 \/ s = 500).
Proof. intros U. unfold do_get. rewrite U. destruct (g_dispatch st); eauto. Qed.

Lemma handle_post_total i :
  (i_component i <> Propagates \/ i_reason_ok i = true) -> is_answer (handle_post i).
Proof.
  intros H. unfold handle_post, is_answer.
  destruct (i_read_ok i); simpl; [|eauto].
  destruct (i_dispatcher i); simpl; [|eauto].
  destruct (i_path i); eauto.
  destruct (i_component i) as [s k|]; eauto.
  destruct H as [H|H]; [congruence|]. rewrite H. eauto.
Qed.

(* the component is asked for a registered path only *)
Lemma handle_get_answers i : (i_path i = PathKnown -> i_component i <> Propagates) -> is_answer (handle_get i).
Proof.
  intros H. unfold handle_get, is_answer.
  destruct (i_dispatcher i); simpl; [|eauto].
  destruct (i_path i); eauto. destruct (i_component i); [eauto|now destruct H].
Qed.

Lemma handle_get_total i : i_component i <> Propagates -> is_answer (handle_get i).
Proof. intros H. apply handle_get_answers. intros _. exact H. Qed.

(* a failing reader, a missing dispatcher, an unknown path never reach the component *)
Lemma handle_post_rejects i :
  i_read_ok i = false \/ i_dispatcher i = false \/ i_path i <> PathKnown ->
  exists s k, handle_post i = Answer s k /\ 400 <= s /\ (k = KEmpty \/ k = KText).
Proof.
  intros H. unfold handle_post.
  destruct (i_read_ok i); simpl; [|exists 400, KEmpty; repeat split; auto; discriminate].
  destruct (i_dispatcher i); simpl; [|exists 500, KText; repeat split; auto; discriminate].
  destruct (i_path i); [destruct H as [H|[H|H]]; congruence | exists 404, KEmpty; repeat split; auto; discriminate ..].
Qed.
