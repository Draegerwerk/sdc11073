(* Executable model of src/sdc11073/httpserver/httpreader.py: mk_chunks, HTTPReader._read_until,
   _read_dechunk, read_request_body, read_response_body.  Definitions only (proofs: Chunk_Proofs.v).

   Bytes are [list N] (values 0..255).  A [stream] is what the code calls [stream] / [rfile]: a
   readable object whose [read n] returns at most [n] bytes and [] only at end of data.  The list
   [scaps] makes short reads explicit: the i-th call of [read n] returns at most [max 1 cap_i]
   bytes (no caps left: as many as requested, the behaviour of the BufferedReader used as rfile).

   Every [read] of a loop of the code costs one unit of [fuel] in the corresponding Fixpoint, so
   that "the loop terminates" is a theorem ([OutOfFuel] is unreachable with enough fuel) instead
   of being built into the definition.  [read_n_found] / [dechunk_found] keep the data loop as it
   is in the pinned source (no end-of-data test), only to state the refutation witness. *)
From Coq Require Import List NArith Bool.
Import ListNotations.
Open Scope N_scope.

Definition bytes := list N.
Definition lenN {A} (l : list A) : N := N.of_nat (length l).

Definition crlf : bytes := [13; 10].

(* ---------------------------------------------------------------- list helpers over N counts *)
Fixpoint takeN {A} (n : N) (l : list A) : list A :=
  match l with
  | [] => []
  | x :: r => if n =? 0 then [] else x :: takeN (N.pred n) r
  end.

Fixpoint dropN {A} (n : N) (l : list A) : list A :=
  match l with
  | [] => []
  | x :: r => if n =? 0 then l else dropN (N.pred n) r
  end.

Definition bytes_eqb (a b : bytes) : bool :=
  (fix go (a b : bytes) : bool :=
     match a, b with
     | [], [] => true
     | x :: a', y :: b' => (x =? y) && go a' b'
     | _, _ => false
     end) a b.

Fixpoint mem_bytes (x : bytes) (l : list bytes) : bool :=
  match l with
  | [] => false
  | y :: r => bytes_eqb x y || mem_bytes x r
  end.

(* ---------------------------------------------------------------- hexadecimal chunk sizes *)
(* f'{n:x}' : lower-case, no prefix, no leading zeros *)
Definition hex_digit (d : N) : N := if d <? 10 then 48 + d else 87 + d.

Fixpoint to_hex_aux (fuel : nat) (n : N) (acc : bytes) : bytes :=
  match fuel with
  | O => acc
  | S f =>
      let acc' := hex_digit (n mod 16) :: acc in
      if n <? 16 then acc' else to_hex_aux f (n / 16) acc'
  end.

Definition to_hex (n : N) : bytes := to_hex_aux (S (N.to_nat (N.log2 n))) n [].

(* value of one HEXDIG (both cases), None for any other byte *)
Definition hex_value (c : N) : option N :=
  if (48 <=? c) && (c <=? 57) then Some (c - 48)
  else if (97 <=? c) && (c <=? 102) then Some (c - 87)
  else if (65 <=? c) && (c <=? 70) then Some (c - 55)
  else None.

Fixpoint from_hex_aux (l : bytes) (acc : N) : option N :=
  match l with
  | [] => Some acc
  | c :: r => match hex_value c with
              | None => None
              | Some d => from_hex_aux r (acc * 16 + d)
              end
  end.

(* 1*HEXDIG (the repaired code tests this before calling int(x, 16)) *)
Definition from_hex (l : bytes) : option N :=
  match l with
  | [] => None
  | _ => from_hex_aux l 0
  end.

(* bytes.strip(): ASCII white space \t \n \v \f \r and space *)
Definition is_ws (c : N) : bool := ((9 <=? c) && (c <=? 13)) || (c =? 32).

Fixpoint drop_ws (l : bytes) : bytes :=
  match l with
  | [] => []
  | c :: r => if is_ws c then drop_ws r else l
  end.

Definition strip (l : bytes) : bytes := rev (drop_ws (rev (drop_ws l))).

(* chunk_header.split(b';')[0] *)
Fixpoint take_until (sep : N) (l : bytes) : bytes :=
  match l with
  | [] => []
  | c :: r => if c =? sep then [] else c :: take_until sep r
  end.

(* chunk size of a chunk header line (without its CRLF); extensions after ';' are ignored *)
Definition parse_size (h : bytes) : option N := from_hex (strip (take_until 59 h)).

(* ---------------------------------------------------------------- mk_chunks *)
Fixpoint mk_chunks_aux (fuel : nat) (n : N) (tail : bytes) : bytes :=
  match fuel with
  | O => []
  | S f =>
      let head := takeN n tail in
      to_hex (lenN head) ++ crlf ++ head ++ crlf ++
      match head with
      | [] => []
      | _ => mk_chunks_aux f n (dropN n tail)
      end
  end.

(* mk_chunks(body, chunk_size=n); chunk_size 0 yields the zero chunk only (callers test > 0) *)
Definition mk_chunks (n : N) (body : bytes) : bytes := mk_chunks_aux (S (length body)) n body.

(* ---------------------------------------------------------------- streams *)
Record stream := mkS { sdata : bytes; scaps : list N }.

Definition uncapped (b : bytes) : stream := mkS b [].

Definition sread (n : N) (s : stream) : bytes * stream :=
  let c := match scaps s with
           | [] => n
           | c :: _ => N.min n (N.max 1 c)
           end in
  (takeN c (sdata s), mkS (dropN c (sdata s)) (tl (scaps s))).

Inductive err :=
| EHeader        (* no CRLF within the first hmax bytes of a chunk header, or end of data *)
| ESize          (* chunk size is not 1*HEXDIG *)
| EEofInChunk    (* end of data inside chunk data *)
| ECrLf          (* chunk data not followed by CRLF *)
| EContentLength (* content-length is not a non-negative number *)
| EUnsupported   (* content-encoding not available *).

Definition err_eqb (a b : err) : bool :=
  match a, b with
  | EHeader, EHeader | ESize, ESize | EEofInChunk, EEofInChunk | ECrLf, ECrLf
  | EContentLength, EContentLength | EUnsupported, EUnsupported => true
  | _, _ => false
  end.

(* HTTPReader._read_until(stream, CR_LF, max_bytes=k): one byte per read; [rbuf] is the buffer
   reversed.  Structural in [k]: at most k reads. *)
Fixpoint read_until (k : nat) (rbuf : bytes) (s : stream) : option bytes * stream :=
  match k with
  | O => (None, s)
  | S k' =>
      let '(c, s') := sread 1 s in
      match c with
      | [] => (None, s')
      | b :: _ =>
          match rbuf with
          | p :: rest =>
              if (b =? 10) && (p =? 13) then (Some (rev rest), s')
              else read_until k' (b :: rbuf) s'
          | [] => read_until k' [b] s'
          end
      end
  end.

Inductive nres :=
| NData (d : bytes) (s : stream)
| NEof (s : stream)
| NFuel.

(* while bytes_to_read: chunk = stream.read(bytes_to_read); if not chunk: raise ...  (repaired) *)
Fixpoint read_n (fuel : nat) (n : N) (s : stream) : nres :=
  match fuel with
  | O => NFuel
  | S f =>
      if n =? 0 then NData [] s
      else
        let '(c, s') := sread n s in
        match c with
        | [] => NEof s'
        | _ => match read_n f (n - lenN c) s' with
               | NData d s'' => NData (c ++ d) s''
               | r => r
               end
        end
  end.

(* the loop of the pinned source: an empty read does not end it *)
Fixpoint read_n_found (fuel : nat) (n : N) (s : stream) : nres :=
  match fuel with
  | O => NFuel
  | S f =>
      if n =? 0 then NData [] s
      else
        let '(c, s') := sread n s in
        match read_n_found f (n - lenN c) s' with
        | NData d s'' => NData (c ++ d) s''
        | r => r
        end
  end.

Inductive dres :=
| DOk (body : bytes) (rest : stream)
| DErr (e : err) (rest : stream)
| DFuel.

Section Dechunk.
  Variable hmax : nat.                                  (* max_bytes of _read_until: 16 *)
  Variable rn : nat -> N -> stream -> nres.             (* the data loop *)

  Fixpoint dechunk_gen (fuel : nat) (s : stream) : dres :=
    match fuel with
    | O => DFuel
    | S f =>
        match read_until hmax [] s with
        | (None, s1) => DErr EHeader s1
        | (Some h, s1) =>
            match parse_size h with
            | None => DErr ESize s1
            | Some n =>
                match rn f n s1 with
                | NFuel => DFuel
                | NEof s2 => DErr EEofInChunk s2
                | NData d s2 =>
                    let '(c, s3) := sread 2 s2 in
                    if bytes_eqb c crlf then
                      if n =? 0 then DOk d s3
                      else match dechunk_gen f s3 with
                           | DOk b s4 => DOk (d ++ b) s4
                           | r => r
                           end
                    else DErr ECrLf s3
                end
            end
        end
    end.
End Dechunk.

Definition dechunk (hmax : nat) := dechunk_gen hmax read_n.
Definition dechunk_found (hmax : nat) := dechunk_gen hmax read_n_found.

(* fuel that always suffices (Chunk_Proofs.dechunk_spec, Props/C13.v C13_dechunk_terminates) *)
Definition fuel_for (s : stream) : nat := length (sdata s) + 2.

(* ---------------------------------------------------------------- read_request_body *)
(* classes of header values; the harness renders each class as concrete header strings *)
Inductive cl_class :=
| CLAbsent             (* no content-length header, or an empty one *)
| CLNum (n : N)        (* decimal digits *)
| CLNeg                (* int() accepts it, value < 0 *)
| CLBad.               (* int() raises ValueError *)

Record req_headers := mkH {
  h_chunked : bool;            (* transfer-encoding present and .lower() == 'chunked' *)
  h_cl : cl_class;
  h_ce : option bytes          (* content-encoding, None when absent or empty *)
}.

Inductive rres :=
| RBody (b : option bytes) (rest : stream)                 (* returned as is; None: no body read *)
| RDecode (enc : bytes) (b : option bytes) (rest : stream) (* decompress_payload(enc, b) is the result *)
| RErr (e : err) (rest : stream)
| RFuel.

Definition decode_step (avail : list bytes) (h : req_headers) (b : option bytes) (s : stream) : rres :=
  match h_ce h with
  | None => RBody b s
  | Some enc => if mem_bytes enc avail then RDecode enc b s else RErr EUnsupported s
  end.

Definition read_request_body (hmax : nat) (avail : list bytes) (fuel : nat) (h : req_headers) (s : stream) : rres :=
  if h_chunked h then
    match dechunk hmax fuel s with
    | DOk b s' => decode_step avail h (Some b) s'
    | DErr e s' => RErr e s'
    | DFuel => RFuel
    end
  else
    match h_cl h with
    | CLAbsent => decode_step avail h None s
    | CLNum n => let '(b, s') := sread n s in decode_step avail h (Some b) s'
    | CLNeg | CLBad => RErr EContentLength s
    end.

(* read_response_body: http.client has removed the chunked framing already; [s] is the payload
   stream of the HTTPResponse ([read n] / [read()]).  Only content-length classes that
   http.client lets through are modelled (absent or a number). *)
Definition read_response_body (avail : list bytes) (h : req_headers) (s : stream) : rres :=
  match h_cl h with
  | CLNum n => let '(b, s') := sread n s in decode_step avail h (Some b) s'
  | _ => decode_step avail h (Some (sdata s)) (mkS [] [])
  end.

(* ---------------------------------------------------------------- correspondence helpers *)
Definition nl_eqb := bytes_eqb.

Definition obytes_eqb (a b : option bytes) : bool :=
  match a, b with
  | None, None => true
  | Some x, Some y => bytes_eqb x y
  | _, _ => false
  end.

(* canonical trace of one reader run: (tag, payload, bytes left in the stream)
   tag 0 = body as is, 1 = body handed to the decompressor, 2.. = error, 99 = out of fuel *)
Definition err_tag (e : err) : N :=
  match e with
  | EHeader => 10 | ESize => 11 | EEofInChunk => 12 | ECrLf => 13
  | EContentLength => 14 | EUnsupported => 15
  end.

Definition rres_trace (r : rres) : N * (option bytes * N) :=
  match r with
  | RBody b s => (0, (b, lenN (sdata s)))
  | RDecode _ b s => (1, (b, lenN (sdata s)))
  | RErr e s => (err_tag e, (None, lenN (sdata s)))
  | RFuel => (99, (None, 0))
  end.

Definition trace_eqb (a b : N * (option bytes * N)) : bool :=
  (fst a =? fst b) && obytes_eqb (fst (snd a)) (fst (snd b)) && (snd (snd a) =? snd (snd b)).

(* case = ((chunked, cl-class code, cl value), content-encoding, data, caps) ; cl code 0 absent 1 num 2 neg 3 bad *)
Definition mk_cl (code v : N) : cl_class :=
  match code with 0 => CLAbsent | 1 => CLNum v | 2 => CLNeg | _ => CLBad end.

Definition run_request (hmax : nat) (avail : list bytes)
           (c : (bool * N * N) * option bytes * bytes * list N) : N * (option bytes * N) :=
  let '(hd, ce, data, caps) := c in
  let '(ch, code, v) := hd in
  let s := mkS data caps in
  rres_trace (read_request_body hmax avail (fuel_for s) (mkH ch (mk_cl code v) ce) s).

Definition run_response (avail : list bytes)
           (c : (bool * N * N) * option bytes * bytes * list N) : N * (option bytes * N) :=
  let '(hd, ce, data, caps) := c in
  let '(ch, code, v) := hd in
  rres_trace (read_response_body avail (mkH ch (mk_cl code v) ce) (mkS data caps)).

Definition run_mk_chunks (c : N * bytes) : bytes := mk_chunks (fst c) (snd c).

(* all framing cases of one run in one evaluation *)
Inductive fcase :=
| FMk (n : N) (b : bytes)
| FReq (c : (bool * N * N) * option bytes * bytes * list N)
| FResp (c : (bool * N * N) * option bytes * bytes * list N).

Inductive fres :=
| FBytes (b : bytes)
| FTrace (t : N * (option bytes * N)).

Definition run_framing (hmax : nat) (avail : list bytes) (c : fcase) : fres :=
  match c with
  | FMk n b => FBytes (mk_chunks n b)
  | FReq c => FTrace (run_request hmax avail c)
  | FResp c => FTrace (run_response avail c)
  end.

Definition fres_eqb (a b : fres) : bool :=
  match a, b with
  | FBytes x, FBytes y => bytes_eqb x y
  | FTrace x, FTrace y => trace_eqb x y
  | _, _ => false
  end.
